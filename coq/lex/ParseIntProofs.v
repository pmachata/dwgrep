(* Integers render, in full form, in their domain's radix such that reading
   the text back as a literal gives the same value in the same domain. *)
From Coq Require Import ZArith List Bool Lia.
From Dwgrep Require Import Radix RadixProofs Value ParseInt.
Import ListNotations.
Local Open Scope Z_scope.

Definition in_range (z : Z) : Prop := - 9223372036854775808 <= z <= 18446744073709551615.

(* no digit is a sign or a radix letter (except b, the digit eleven) *)
Lemma digit_char_cases d : (0 < d < 16)%N ->
  let c := digit_char d in
  c <> 48%N /\ is_x c = false /\ is_o c = false /\ (d < 8 -> is_b c = false)%N /\ c <> 45%N.
Proof.
  intros Hd. unfold digit_char, is_x, is_o, is_b.
  destruct (N.ltb_spec d 10); repeat split; intros; rewrite ?orb_false_iff, ?N.eqb_neq; lia.
Qed.

Definition finish (neg : bool) (base : N) (dom : cdom) (digs : bytes) : pres :=
  match digs with
  | [] => PInvalid
  | _ =>
    match read_digits base digs 0 with
    | None => PInvalid
    | Some v =>
      if (18446744073709551615 <? v)%N then POutOfRange
      else if neg then
        if (9223372036854775808 <? v)%N then POutOfRange else PInt (- Z.of_N v) dom
      else PInt (Z.of_N v) dom
    end
  end.

Definition after_sign (neg : bool) (body : bytes) : pres :=
  let '(base, dom, digs) := split_prefix body in finish neg base dom digs.

Lemma parse_int_neg r : parse_int (45%N :: r) = after_sign true r.
Proof. reflexivity. Qed.

(* the pattern 45 :: _ of the model is a match on the bits of c *)
Lemma parse_int_pos c r : c <> 45%N -> parse_int (c :: r) = after_sign false (c :: r).
Proof.
  byte_cases c reflexivity. congruence.
Qed.

Lemma split_dec c r : c <> 48%N -> split_prefix (c :: r) = (10%N, DDec, c :: r).
Proof.
  byte_cases c reflexivity. congruence.
Qed.

Lemma split_oct c r : is_x c = false -> is_b c = false -> is_o c = false ->
  split_prefix (48%N :: c :: r) = (8%N, DOct, c :: r).
Proof. intros Hx Hb Ho. destruct r; cbn [split_prefix]; rewrite ?Hx, ?Hb, ?Ho; reflexivity. Qed.

Lemma finish_digits (neg : bool) base dom n : (2 <= base <= 16)%N -> (0 < n)%N ->
  (n <= if neg then 9223372036854775808 else 18446744073709551615)%N ->
  finish neg base dom (digits base n) = PInt (if neg then - Z.of_N n else Z.of_N n) dom.
Proof.
  intros Hb Hn R. destruct (digits_head base n Hb Hn) as (d & rest & E & _).
  unfold finish. rewrite digits_roundtrip by assumption. rewrite E.
  destruct (N.ltb_spec 18446744073709551615 n); destruct neg; try lia; [|reflexivity].
  destruct (N.ltb_spec 9223372036854775808 n); [lia|reflexivity].
Qed.

(* One statement for the four radices.  What a radix has to show: its prefix
   [pre], put before a string that starts with a nonzero digit of that radix
   (and after the sign, if any), makes parse_int read the string in that
   radix and domain. *)
Theorem render_parse pre base dom z : (2 <= base <= 16)%N ->
  (forall (neg : bool) d r, (0 < d < base)%N ->
     parse_int ((if neg then [char_minus] else []) ++ pre ++ digit_char d :: r)
     = finish neg base dom (digit_char d :: r)) ->
  in_range z -> z <> 0 ->
  parse_int ((if z <? 0 then [char_minus] else []) ++ pre ++ digits base (zabs z)) = PInt z dom.
Proof.
  intros Hb Hpre R NZ. unfold in_range, zabs in *.
  destruct (digits_head base (Z.abs_N z) Hb ltac:(lia)) as (d & rest & E & Hd).
  rewrite E, Hpre, <- E, finish_digits by (try assumption; destruct (Z.ltb_spec z 0); lia).
  f_equal. destruct (Z.ltb_spec z 0); lia.
Qed.

Theorem hex_render_parse z : in_range z -> z <> 0 -> parse_int (show_hex z) = PInt z DHex.
Proof.
  intros R NZ. unfold show_hex. rewrite (proj2 (Z.eqb_neq z 0) NZ).
  (* a literal prefix makes every match of [parse_int] compute, the tail [digit_char d :: r] staying
     open (likewise for bin); under oct and dec the matches reach [digit_char d] itself *)
  apply render_parse; [lia| |assumption..]. intros [] d r _; reflexivity.
Qed.

Theorem bin_render_parse z : in_range z -> z <> 0 -> parse_int (show_bin z) = PInt z DBin.
Proof.
  intros R NZ. unfold show_bin. rewrite (proj2 (Z.eqb_neq z 0) NZ).
  apply render_parse; [lia| |assumption..]. intros [] d r _; reflexivity.
Qed.

Theorem oct_render_parse z : in_range z -> z <> 0 -> parse_int (show_oct z) = PInt z DOct.
Proof.
  intros R NZ. unfold show_oct. rewrite (proj2 (Z.eqb_neq z 0) NZ).
  apply render_parse; [lia| |assumption..]. intros neg d r Hd.
  destruct (digit_char_cases d ltac:(lia)) as (_ & Hx & Ho & Hb & _). specialize (Hb ltac:(lia)).
  destruct neg; cbn [app str0]; [rewrite parse_int_neg|rewrite parse_int_pos by discriminate];
    unfold after_sign; rewrite split_oct by assumption; reflexivity.
Qed.

Theorem dec_render_parse z : in_range z -> parse_int (show_dec z) = PInt z DDec.
Proof.
  intros R. destruct (Z.eq_dec z 0) as [->|NZ]; [reflexivity|]. unfold show_dec.
  apply (render_parse [] 10); [lia| |assumption..]. intros neg d r Hd.
  destruct (digit_char_cases d ltac:(lia)) as (N48 & _ & _ & _ & N45).
  destruct neg; cbn [app]; [rewrite parse_int_neg|rewrite parse_int_pos by assumption];
    unfold after_sign; rewrite split_dec by assumption; reflexivity.
Qed.

(* zero in a non-decimal domain prints as "0", which reads back as decimal
   zero: equal value, different domain (iostream's showbase prints no prefix
   for zero) *)
Theorem zero_reads_back_decimal :
  parse_int (show_hex 0) = PInt 0 DDec /\ parse_int (show_oct 0) = PInt 0 DDec /\ parse_int (show_bin 0) = PInt 0 DDec.
Proof. repeat split; reflexivity. Qed.
