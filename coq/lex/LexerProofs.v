(* The scanner model is total: it never runs out of fuel, every step consumes
   at least one byte and never more than there is. *)
From Coq Require Import NArith List Arith Lia.
From Dwgrep Require Import Radix RadixProofs Lexer.
Import ListNotations.
Local Open Scope N_scope.

Lemma best_ge rs : forall cur, (fst cur <= fst (best rs cur))%nat /\ Forall (fun r => (fst r <= fst (best rs cur))%nat) rs.
Proof.
  induction rs as [|r rs IH]; intros cur; cbn [best]; [split; [lia|constructor]|].
  destruct (IH (if Nat.ltb (fst cur) (fst r) then r else cur)) as [A B].
  destruct (Nat.ltb_spec (fst cur) (fst r)) as [L|L]; (split; [lia|constructor; [lia|exact B]]).
Qed.

Lemma best_in rs : forall cur, best rs cur = cur \/ In (best rs cur) rs.
Proof.
  induction rs as [|r rs IH]; intros cur; cbn [best]; [left; reflexivity|].
  destruct (IH (if Nat.ltb (fst cur) (fst r) then r else cur)) as [E|I].
  - rewrite E. destruct (Nat.ltb (fst cur) (fst r)); [right; left; reflexivity|left; reflexivity].
  - right; right; exact I.
Qed.

Lemma match_initial_ge s k r : nth_error (rules s) k = Some r -> (fst r <= fst (match_initial s))%nat.
Proof.
  intros H. apply nth_error_In in H. unfold match_initial.
  destruct (best_ge (rules s) (O, fun _ => ASkip)) as [_ F]. rewrite Forall_forall in F. apply F in H.
  destruct (best (rules s) (O, fun _ => ASkip)). exact H.
Qed.

(* some rule matches every first byte: a newline is blank, anything else is at
   least an invalid character; 29 and 33 are the positions, from 0, of [m_blank]
   and [m_any] in [rules] *)
Theorem match_initial_progress c s : (1 <= fst (match_initial (c :: s)))%nat.
Proof.
  destruct (N.eqb_spec c 10) as [->|NE].
  - pose proof (match_initial_ge (10 :: s) 29 _ eq_refl) as I. cbn [fst m_blank span] in I.
    change (is_blank 10) with true in I. cbn iota in I. lia.
  - pose proof (match_initial_ge (c :: s) 33 _ eq_refl) as I. cbn [fst m_any] in I.
    apply N.eqb_neq in NE. rewrite NE in I. exact I.
Qed.

Lemma span_le p s : (span p s <= length s)%nat.
Proof. induction s as [|c s IH]; cbn; [lia|]. destruct (p c); lia. Qed.

Lemma is_prefix_length l : forall s, is_prefix l s = true -> (length l <= length s)%nat.
Proof.
  induction l as [|x l IH]; intros [|y s] H; cbn in *; try lia.
  apply andb_prop in H. destruct H as [_ H]. apply IH in H. lia.
Qed.

Lemma m_lit_le l s : (m_lit l s <= length s)%nat.
Proof. unfold m_lit. destruct (is_prefix l s) eqn:E; [apply is_prefix_length; exact E|lia]. Qed.

Lemma skipn_length_le {A} k (s : list A) : (length (skipn k s) <= length s)%nat.
Proof. rewrite skipn_length. lia. Qed.

Lemma m_ticks_le s : (m_ticks s <= length s)%nat.
Proof.
  unfold m_ticks. set (k := span (fun c => c =? 96) s). pose proof (skipn_length k s) as L.
  destruct (skipn k s) as [|c r]; [apply Nat.le_0_l|]. cbn [length] in L.
  assert (S k <= length s)%nat as H by lia. byte_cases c ltac:(apply Nat.le_0_l). exact H.
Qed.

Lemma m_id_le s : (m_id s <= length s)%nat.
Proof. destruct s as [|c t]; cbn; [lia|]. pose proof (span_le is_alnum t). destruct (is_idstart c); lia. Qed.
Lemma m_intbody_le s : (m_intbody s <= length s)%nat.
Proof. destruct s as [|c t]; cbn; [lia|]. pose proof (span_le is_alnum t). destruct (is_digit c); lia. Qed.
Lemma m_word_le s : (m_word s <= length s)%nat.
Proof.
  destruct s as [|c t]; [cbn; lia|]. pose proof (m_id_le t). pose proof (m_id_le (c :: t)).
  unfold m_word. cbn [length] in *. destruct (is_wordprefix c), (m_id t); lia.
Qed.
Lemma m_numword_le s : (m_numword s <= length s)%nat.
Proof.
  destruct s as [|c t]; cbn [m_numword length]; [lia|]. pose proof (m_intbody_le t).
  destruct (is_qb c), (m_intbody t); lia.
Qed.
Lemma m_int_le s : (m_int s <= length s)%nat.
Proof.
  destruct s as [|c t]; [apply Nat.le_0_l|]. pose proof (m_intbody_le t). pose proof (m_intbody_le (c :: t)).
  unfold m_int. cbn [length] in *. byte_cases c assumption. destruct (m_intbody t); lia.
Qed.
Lemma m_linecomment_le s : (m_linecomment s <= length s)%nat.
Proof.
  assert (forall t, (S (span (fun c => negb (c =? 10)%N) t) <= S (length t))%nat) as A by (intro; apply le_n_S, span_le).
  destruct s as [|c t]; [apply Nat.le_0_l|].
  byte_cases c ltac:(first [apply Nat.le_0_l | apply A]).
  destruct t as [|d t]; [apply Nat.le_0_l|]. byte_cases d ltac:(apply Nat.le_0_l). apply le_n_S, A.
Qed.
(* the pattern 42 :: 47 :: _ of the model is a match on the bits of two bytes *)
Lemma find_close_cons c t :
  find_close (c :: t) = match find_close t with Some n => Some (S n) | None => None end
  \/ find_close (c :: t) = Some 2%nat /\ exists t', t = 47 :: t'.
Proof.
  byte_cases c ltac:(left; reflexivity).
  destruct t as [|d t]; [left; reflexivity|]. byte_cases d ltac:(left; reflexivity). eauto.
Qed.
Lemma find_close_le s : forall n, find_close s = Some n -> (n <= length s)%nat.
Proof.
  induction s as [|c t IH]; intros n H; [discriminate|].
  destruct (find_close_cons c t) as [E|[E [t' ->]]]; rewrite E in H.
  - destruct (find_close t) as [m|]; [|discriminate]. injection H as <-. apply le_n_S, IH. reflexivity.
  - injection H as <-. apply le_n_S, le_n_S, Nat.le_0_l.
Qed.
Lemma m_blockcomment_le s : (m_blockcomment s <= length s)%nat.
Proof.
  unfold m_blockcomment. destruct s as [|c s]; [apply Nat.le_0_l|]. byte_cases c ltac:(apply Nat.le_0_l).
  destruct s as [|d t]; [apply Nat.le_0_l|]. byte_cases d ltac:(apply Nat.le_0_l).
  pose proof (find_close_le t) as G. destruct (find_close t) as [n|]; [|apply Nat.le_0_l].
  apply le_n_S, le_n_S, G. reflexivity.
Qed.
Lemma m_op_le s : (m_op s <= length s)%nat.
Proof.
  destruct s as [|c t]; [cbn; lia|]. pose proof (span_le is_opchar t). pose proof (span_le is_opchar (c :: t)).
  unfold m_op. cbn [length] in *. destruct (is_qb c), (span is_opchar t); lia.
Qed.
Lemma m_any_le s : (m_any s <= length s)%nat.
Proof. destruct s as [|c t]; cbn; [lia|]. destruct (c =? 10); lia. Qed.

Lemma rules_bounded s : Forall (fun r => (fst r <= length s)%nat) (rules s).
Proof.
  repeat (constructor; [cbn [fst];
    first [apply m_lit_le | apply m_ticks_le | apply m_word_le | apply m_numword_le | apply m_int_le
          | apply span_le | apply m_linecomment_le | apply m_blockcomment_le | apply m_op_le | apply m_any_le]|]).
  constructor.
Qed.

Theorem match_initial_bounded s : (fst (match_initial s) <= length s)%nat.
Proof.
  unfold match_initial.
  destruct (best_in (rules s) (O, fun _ : bytes => ASkip)) as [B|B];
    destruct (best (rules s) (O, fun _ => ASkip)) as [n f]; cbn [fst].
  - inversion B. lia.
  - pose proof (rules_bounded s) as F. rewrite Forall_forall in F. exact (F _ B).
Qed.

Definition mode_ok (N : nat) (m : smode) : Prop :=
  match m with MCont back => (length back <= N)%nat | _ => True end.

(* follows an equation [str_scan ... = SDone ps rest], unfolded one step, down
   every branch: a leaf hands back the tail or the continuation's [back]; a
   recursive call is on a tail of the input and is [IH]'s *)
Ltac scan_leaf IH :=
  match goal with
  | H : SDone _ _ = SDone _ _ |- _ => injection H as _ <-; eauto
  | H : SErr _ = SDone _ _ |- _ => discriminate H
  | H : (if ?b then _ else _) = SDone _ _ |- _ => destruct b; scan_leaf IH
  | H : match ?x with _ => _ end = SDone _ _ |- _ => destruct x; scan_leaf IH
  | H : str_scan _ _ _ = SDone _ _ |- _ =>
    eapply IH in H; [exact H | cbn [length]; auto with arith | eauto | cbn; eauto]
  end.

(* what is handed back is the input, or the continuation's [back], less some
   bytes at its head: it has every property of these that dropping a byte keeps *)
Lemma str_scan_tail (P : bytes -> Prop) : (forall c t, P (c :: t) -> P t) ->
  forall s m f ps rest, P s -> match m with MCont back => P back | _ => True end ->
  str_scan m f s = SDone ps rest -> P rest.
Proof.
  intros Tl. induction s as [s IH] using (induction_ltof1 _ (@length _)). unfold ltof in IH.
  intros m f ps rest Hs Hm H.
  destruct s as [|c t]; destruct m; cbn [str_scan flush f_pieces] in H; scan_leaf IH.
Qed.

Lemma str_scan_suffix N s m f ps rest : (length s <= N)%nat -> mode_ok N m ->
  str_scan m f s = SDone ps rest -> (length rest <= N)%nat.
Proof.
  intros Hs Hm. apply (str_scan_tail (fun x => (length x <= N)%nat)); [|exact Hs|destruct m; exact Hm].
  intros c t H. apply Nat.lt_le_incl. exact H.
Qed.

Lemma lex_step fu c t acc :
  (exists e, lex (S fu) (c :: t) acc = LexError acc e) \/
  (exists rest acc', lex (S fu) (c :: t) acc = lex fu rest acc' /\ (length rest <= length t)%nat).
Proof.
  pose proof (match_initial_progress c t) as P. cbn [lex].
  destruct (match_initial (c :: t)) as [n a]. cbn [fst] in P.
  assert (length (skipn n (c :: t)) <= length t)%nat as LR by (rewrite skipn_length; cbn [length]; lia).
  destruct a as [tk| |raw|ch]; [right; eauto| |..|left; eauto].
  - destruct n; [lia|]. right; eauto.
  - destruct (str_scan MBody (new_fmt raw) (skipn n (c :: t))) as [ps rest'|e] eqn:E; [right|left; eauto].
    apply (str_scan_suffix (length t)) in E; [eauto|exact LR|exact I].
Qed.

Lemma lex_enough_fuel : forall fuel s acc, (length s < fuel)%nat -> lex fuel s acc <> LexFuel.
Proof.
  induction fuel as [|fu IH]; intros s acc L; [lia|].
  destruct s as [|c t]; [discriminate|]. cbn [length] in L.
  destruct (lex_step fu c t acc) as [[e ->]|(rest & acc' & -> & LR)]; [discriminate|apply IH; lia].
Qed.

Theorem lex_total s : lex_all s <> LexFuel.
Proof. apply lex_enough_fuel. lia. Qed.

Theorem lex_classifies s : (exists ts, lex_all s = LexOk ts) \/ (exists ts e, lex_all s = LexError ts e).
Proof.
  pose proof (lex_total s) as T. destruct (lex_all s) as [ts|ts e|]; [left; eauto|right; eauto|congruence].
Qed.

Lemma lex_ends_with_eof : forall fuel s acc ts, lex fuel s acc = LexOk ts -> exists ts', ts = ts' ++ [TEOF].
Proof.
  induction fuel as [|fu IH]; intros s acc ts H; [discriminate|].
  destruct s as [|c t]; [injection H as <-; eauto|].
  destruct (lex_step fu c t acc) as [[e E]|(rest & acc' & E & _)]; rewrite E in H; [discriminate H|eauto].
Qed.

Lemma body_plain c t f : c <> 34 -> c <> 92 -> c <> 37 -> str_scan MBody f (c :: t) = str_scan MBody (add_lit f [c]) t.
Proof. intros A B C. apply N.eqb_neq in A, B, C. cbn [str_scan]. rewrite A, B, C. reflexivity. Qed.

Lemma body_unterminated : forall s f, Forall (fun c => c <> 34 /\ c <> 92 /\ c <> 37) s -> str_scan MBody f s = SErr EUnterminated.
Proof.
  induction s as [|c t IH]; intros f F; [reflexivity|].
  inversion F as [|? ? [A [B C]] Ft]. rewrite body_plain by assumption. apply IH. exact Ft.
Qed.

(* a string opened at the start of the input and never closed is rejected; the
   body is taken free of quote, backslash and percent *)
Theorem unterminated_string_rejected s : Forall (fun c => c <> 34 /\ c <> 92 /\ c <> 37) s ->
  lex_all (34 :: s) = LexError [] EUnterminated.
Proof.
  intros F. unfold lex_all. cbn [length lex].
  (* on the first byte every rule fails but the quote and the catch-all [m_any], both of
     length 1, and [best] keeps the earlier of two equal lengths *)
  change (match_initial (34 :: s)) with (1%nat, AString false).
  cbn [skipn]. rewrite body_unterminated by exact F. reflexivity.
Qed.
