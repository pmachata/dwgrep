(* What the CLI prints for a string nested in a sequence reads back, through
   the lexer, as the same bytes -- hence different strings never print alike. *)
From Coq Require Import NArith List Bool Lia.
From Dwgrep Require Import Radix RadixProofs Escape.
Import ListNotations.
Local Open Scope N_scope.

Lemma lex_plain c t raw acc :
  (c =? 92) = false -> (c =? 34) = false -> (c =? 37) = false ->
  lex_body SBody raw acc (c :: t) = lex_body SBody raw (acc ++ [c]) t.
Proof. intros H1 H2 H3. cbn [lex_body]. rewrite H1, H2, H3. reflexivity. Qed.

Lemma lex_simple d t acc :
  (d =? 120) = false -> ((48 <=? d) && (d <=? 51)) = false ->
  lex_body SBody false acc (92 :: d :: t) = lex_body SBody false (acc ++ simple_escape d) t.
Proof. intros H1 H2. cbn [lex_body]. change (92 =? 92) with true. cbn iota. rewrite H1, H2. reflexivity. Qed.

Lemma lex_hex h1 h2 t raw acc :
  lex_body SBody raw acc (92 :: 120 :: h1 :: h2 :: t)
  = if is_hex h1 && is_hex h2 then lex_body SBody raw (acc ++ [(hex_val h1 * 16 + hex_val h2) mod 256]) t
    else lex_body SBody raw (acc ++ if raw then [92; 120] else [120]) (h1 :: h2 :: t).
Proof. destruct raw; reflexivity. Qed.

Lemma lex_percent t raw acc :
  lex_body SBody raw acc (37 :: 37 :: t) = lex_body SBody raw (acc ++ [37]) t.
Proof. reflexivity. Qed.

(* what follows the literal in the CLI's output is `,`, `]` or a newline --
   anything but a backslash (which would start a string continuation) *)
Definition no_continuation (rest : bytes) : Prop := match rest with 92 :: _ => False | _ => True end.

Lemma lex_close raw acc rest : no_continuation rest ->
  lex_body SBody raw acc (34 :: rest) = LexLit acc rest.
Proof.
  intros H. cbn [lex_body]. change (34 =? 92) with false. change (34 =? 34) with true.
  destruct rest as [|d t]; [reflexivity|].
  destruct (N.eqb_spec d 92) as [->|_]; [contradiction|reflexivity].
Qed.

Lemma digit_val_hex c d : digit_val 16 c = Some d -> is_hex c = true /\ hex_val c = d.
Proof.
  unfold digit_val, is_hex, hex_val.
  destruct ((48 <=? c) && (c <=? 57));
    [|destruct ((97 <=? c) && (c <=? 102)); [|destruct ((65 <=? c) && (c <=? 70)); [|discriminate]]];
    (destruct (_ <? 16); [intros [= <-]; auto|discriminate]).
Qed.

Lemma hex_digit d : d < 16 -> is_hex (digit_char d) = true /\ hex_val (digit_char d) = d.
Proof. intros H. apply digit_val_hex, digit_val_char; [lia|exact H]. Qed.

Lemma esc_step c tail acc : c < 256 ->
  lex_body SBody false acc (esc_byte c ++ tail) = lex_body SBody false (acc ++ [c]) tail.
Proof.
  intros Hc. unfold esc_byte.
  (* the bytes with an escape of their own: `lex_body` reads a concrete head by computation, whatever the tail *)
  repeat match goal with |- context [if c =? ?k then _ else _] =>
    destruct (N.eqb_spec c k) as [->|?]; [reflexivity|] end.
  destruct (isprint c) eqn:P.
  - apply lex_plain; apply N.eqb_neq; assumption.
  - cbn [app].
    assert (c / 16 < 16) as D1 by (apply N.div_lt_upper_bound; [discriminate|exact Hc]).
    assert (c mod 16 < 16) as D2 by (apply N.mod_lt; discriminate).
    destruct (hex_digit _ D1) as [A1 A2]. destruct (hex_digit _ D2) as [B1 B2].
    rewrite lex_hex, A1, B1, A2, B2. cbn [andb].
    rewrite (N.mul_comm (c / 16)), <- N.div_mod by discriminate. rewrite N.mod_small by exact Hc. reflexivity.
Qed.

Lemma esc_body_read s : forall acc tail, Forall (fun c => c < 256) s ->
  lex_body SBody false acc (esc_body s ++ tail) = lex_body SBody false (acc ++ s) tail.
Proof.
  induction s as [|c s IH]; intros acc tail F.
  - rewrite app_nil_r. reflexivity.
  - inversion F as [|? ? Hc Fs]. unfold esc_body in *. cbn [flat_map]. rewrite <- app_assoc.
    rewrite esc_step by assumption. rewrite IH by assumption. rewrite <- app_assoc. reflexivity.
Qed.

Theorem escape_roundtrip s rest : Forall (fun c => c < 256) s -> no_continuation rest ->
  lex_string (esc s ++ rest) = Some (LexLit s rest).
Proof.
  intros F R. unfold esc, lex_string. cbn [app]. f_equal.
  rewrite <- app_assoc. rewrite esc_body_read by assumption. apply lex_close. exact R.
Qed.

Theorem escape_injective s1 s2 :
  Forall (fun c => c < 256) s1 -> Forall (fun c => c < 256) s2 -> esc s1 = esc s2 -> s1 = s2.
Proof.
  intros F1 F2 E.
  pose proof (escape_roundtrip s1 [] F1 I) as R1. pose proof (escape_roundtrip s2 [] F2 I) as R2.
  rewrite E in R1. congruence.
Qed.

(* the rendering never contains a raw newline or NUL, so one value stays on one line *)
Lemma esc_byte_clean c : c < 256 -> Forall (fun b => 32 <= b <= 126) (esc_byte c).
Proof.
  intros Hc. unfold esc_byte.
  repeat match goal with |- context [if c =? ?k then _ else _] =>
    destruct (c =? k); [repeat constructor; discriminate|] end.
  destruct (isprint c) eqn:P.
  - apply andb_prop in P. destruct P as [P1 P2]. apply N.leb_le in P1, P2. repeat constructor; assumption.
  - assert (c / 16 < 16) as D1 by (apply N.div_lt_upper_bound; [discriminate|exact Hc]).
    assert (c mod 16 < 16) as D2 by (apply N.mod_lt; discriminate).
    assert (forall d, d < 16 -> 32 <= digit_char d <= 126) as DC.
    { intros d Hd. unfold digit_char. destruct (N.ltb_spec d 10); lia. }
    repeat constructor; try discriminate; apply DC; assumption.
Qed.

Theorem esc_printable s : Forall (fun c => c < 256) s -> Forall (fun b => 32 <= b <= 126) (esc s).
Proof.
  intros F. constructor; [lia|]. apply Forall_app. split; [|repeat constructor; lia].
  unfold esc_body. induction F as [|c s Hc F IH]; cbn [flat_map]; [constructor|].
  apply Forall_app. split; [apply esc_byte_clean; assumption|exact IH].
Qed.
