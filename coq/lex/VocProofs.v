(* Table theorems over the vocabulary of named constants.  gen/VocTable.v is
   regenerated on every run (checks/C20.py) from what the library's vocabulary
   evaluates to and from /usr/include/dwarf.h, elf.h; the theorems below are
   therefore re-checked against the code as it is.  The tables are finite:
   the statements are lifted from boolean sweeps evaluated by the kernel.  The
   sweeps are linear in the table: rows are looked up in an index (a map from
   the packed bytes of a word to a row), and what a sweep needs of the index
   it checks itself, so nothing is assumed about the packing. *)
From Coq Require Import ZArith List Bool FMapPositive.
From Dwgrep Require Import ValueProofs VocTable.
Import ListNotations.

Fixpoint beq_bytes (a b : list N) : bool :=
  match a, b with
  | [], [] => true
  | x :: a', y :: b' => N.eqb x y && beq_bytes a' b'
  | _, _ => false
  end.

(* `beq_bytes` has the body of `Value.bytes_eqb` *)
Lemma beq_bytes_eq a b : beq_bytes a b = true <-> a = b.
Proof. split; [apply bytes_eqb_eq|intros ->; apply bytes_eqb_refl]. Qed.

Definition row := (list N * Z * N * list N)%type.
Definition r_word (r : row) := fst (fst (fst r)).
Definition r_val (r : row) := snd (fst (fst r)).
Definition r_dom (r : row) := snd (fst r).
Definition r_show (r : row) := snd r.

(* [key]: the bytes of a word or rendering, the low eight bits of each, packed
   into one positive.  [pack] goes by cases on the byte's constructors: coqchk
   replays the sweeps with its lazy machine, which takes few steps this way. *)
Fixpoint pack (n : nat) (b : N) (k : positive) : positive :=
  match n with
  | O => k
  | S n => match b with
           | N0 => pack n N0 k~0
           | Npos xH => pack n N0 k~1
           | Npos p~0 => pack n (Npos p) k~0
           | Npos p~1 => pack n (Npos p) k~1
           end
  end%positive.
Definition key (w : list N) : positive := fold_right (pack 8) xH w.

Definition index (f : row -> list N) (rows : list row) : PositiveMap.t row :=
  fold_right (fun r => PositiveMap.add (key (f r)) r) (PositiveMap.empty row) rows.
Definition lookup (w : list N) (m : PositiveMap.t row) : option row := PositiveMap.find (key w) m.

Lemma index_sound f rows w r : lookup w (index f rows) = Some r -> In r rows.
Proof.
  unfold lookup. induction rows as [|r0 rows IH]; cbn [index fold_right].
  - rewrite PositiveMap.gempty. discriminate.
  - rewrite PositiveMapAdditionalFacts.gsspec. destruct (PositiveMap.E.eq_dec _ _); [intros [= ->]; left; reflexivity|right; auto].
Qed.

Definition same_vd (a b : row) : bool := Z.eqb (r_val a) (r_val b) && N.eqb (r_dom a) (r_dom b).
Definition indexed (m : PositiveMap.t row) (f g : row -> list N) (rows : list row) : bool :=
  forallb (fun r => match lookup (f r) m with Some r0 => same_vd r0 r && beq_bytes (g r0) (g r) | None => false end) rows.

Lemma same_vd_eq a b : same_vd a b = true -> r_val a = r_val b /\ r_dom a = r_dom b.
Proof. intros H. apply andb_prop in H. destruct H as [H1 H2]. apply Z.eqb_eq in H1. apply N.eqb_eq in H2. auto. Qed.

Lemma indexed_lookup m f g rows : indexed m f g rows = true -> forall r, In r rows ->
  exists r0, lookup (f r) m = Some r0 /\ r_val r0 = r_val r /\ r_dom r0 = r_dom r /\ g r0 = g r.
Proof.
  unfold indexed. rewrite forallb_forall. intros S r Hr. specialize (S _ Hr).
  destruct (lookup (f r) m) as [r0|]; [|discriminate]. exists r0.
  apply andb_prop in S. destruct S as [A B]. apply same_vd_eq in A. apply beq_bytes_eq in B. tauto.
Qed.

(* whatever [m] and [key] are: two rows with the same [f] look up the same row *)
Lemma indexed_functional m f g rows : indexed m f g rows = true ->
  forall r r', In r rows -> In r' rows -> f r' = f r -> r_val r' = r_val r /\ r_dom r' = r_dom r /\ g r' = g r.
Proof.
  intros S r r' Hr Hr' E.
  destruct (indexed_lookup m f g rows S r Hr) as [r0 [L [A [B C]]]].
  destruct (indexed_lookup m f g rows S r' Hr') as [r1 [L' [A' [B' C']]]].
  rewrite E, L in L'. injection L' as <-. repeat split; congruence.
Qed.

Local Notation by_word := (index r_word voc_rows).

Definition hdr_ok (m : PositiveMap.t row) (h : list N * Z) : bool :=
  match lookup (fst h) m with Some r => Z.eqb (r_val r) (snd h) | None => true end.

Definition reads_back (m : PositiveMap.t row) (r : row) : bool :=
  match lookup (r_show r) m with
  | Some r' => beq_bytes (r_word r') (r_show r) && same_vd r' r
  | None => false
  end.

(* One evaluation for the three sweeps over the index of the words: building
   the index is the greater part of each, and under the [let] it is built once. *)
Lemma word_sweeps : let m := by_word in
  indexed m r_word r_show voc_rows = true /\ forallb (hdr_ok m) hdr_rows = true /\ forallb (reads_back m) voc_rows = true.
Proof. vm_compute. auto. Qed.

(* a word denotes one constant *)
Lemma word_indexed : indexed by_word r_word r_show voc_rows = true.
Proof. exact (proj1 word_sweeps). Qed.

Lemma header_values_sweep : forallb (hdr_ok by_word) hdr_rows = true.
Proof. exact (proj1 (proj2 word_sweeps)). Qed.

Lemma rendering_reads_back_sweep : forallb (reads_back by_word) voc_rows = true.
Proof. exact (proj2 (proj2 word_sweeps)). Qed.

(* every name the headers define and the vocabulary offers has the header's value *)
Theorem header_values : forall name v r,
  In (name, v) hdr_rows -> In r voc_rows -> r_word r = name -> r_val r = v.
Proof.
  intros name v r Hh Hr <-. pose proof header_values_sweep as S. rewrite forallb_forall in S.
  specialize (S _ Hh). unfold hdr_ok in S. cbn [fst snd] in S.
  destruct (indexed_lookup _ _ _ _ word_indexed r Hr) as [r0 [L [A _]]].
  rewrite L in S. apply Z.eqb_eq in S. congruence.
Qed.

(* the rendering of every constant is itself a word, denoting a constant with
   the same value in the same domain *)
Theorem rendering_reads_back : forall r, In r voc_rows ->
  exists r', In r' voc_rows /\ r_word r' = r_show r /\ r_val r' = r_val r /\ r_dom r' = r_dom r.
Proof.
  intros r Hr. pose proof rendering_reads_back_sweep as S. rewrite forallb_forall in S.
  specialize (S _ Hr). unfold reads_back in S.
  destruct (lookup (r_show r) by_word) as [r'|] eqn:L; [|discriminate]. apply index_sound in L.
  apply andb_prop in S. destruct S as [E V]. apply beq_bytes_eq in E. apply same_vd_eq in V.
  exists r'. tauto.
Qed.

Definition word_functional (r : row) : bool :=
  forallb (fun r' => negb (beq_bytes (r_word r') (r_word r))
                     || (Z.eqb (r_val r') (r_val r) && N.eqb (r_dom r') (r_dom r) && beq_bytes (r_show r') (r_show r))) voc_rows.

(* the all-pairs form of [word_indexed]: derived from it, not evaluated (it is
   quadratic in the table) *)
Theorem word_functional_sweep : forallb word_functional voc_rows = true.
Proof.
  apply forallb_forall. intros r Hr. apply forallb_forall. intros r' Hr'.
  destruct (beq_bytes (r_word r') (r_word r)) eqn:E; [|reflexivity]. apply beq_bytes_eq in E.
  destruct (indexed_functional _ _ _ _ word_indexed r r' Hr Hr' E) as [-> [-> ->]].
  rewrite Z.eqb_refl, N.eqb_refl. apply beq_bytes_eq. reflexivity.
Qed.

(* two constants that print alike are, by [rendering_reads_back], the constants of one word *)
Theorem renderings_unambiguous : forall r r', In r voc_rows -> In r' voc_rows ->
  r_show r' = r_show r -> r_val r' = r_val r /\ r_dom r' = r_dom r.
Proof.
  intros r r' Hr Hr' E.
  destruct (rendering_reads_back r Hr) as [w [Hw [W [V D]]]].
  destruct (rendering_reads_back r' Hr') as [w' [Hw' [W' [V' D']]]].
  rewrite <- E, <- W' in W.
  destruct (indexed_functional _ _ _ _ word_indexed w' w Hw' Hw W) as [A [B _]].
  split; congruence.
Qed.

(* non-vacuity: the tables are not empty *)
Example tables_populated : (500 <? N.of_nat (length voc_rows))%N = true /\ (500 <? N.of_nat (length hdr_rows))%N = true.
Proof. vm_compute. auto. Qed.
