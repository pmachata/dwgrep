From Coq Require Import ZArith Znumtheory List Lia.
From Dwgrep Require Import Profile.
Import ListNotations.
Local Open Scope Z_scope.

Lemma wf_inv c s : wf_codes (c :: s) -> 0 < c < 256 /\ wf_codes s.
Proof. intros H. inversion H; auto. Qed.

Lemma wf_nth s i : wf_codes s -> 0 <= nth i s 0 < 256.
Proof.
  intros H. destruct (Nat.lt_ge_cases i (length s)) as [L|L]; [|rewrite nth_overflow by exact L; lia].
  assert (0 < nth i s 0 < 256) by exact (proj1 (Forall_forall _ _) H _ (nth_In _ 0 L)). lia.
Qed.

Lemma wf_slots s : wf_codes s ->
  0 <= nth 0 s 0 < 256 /\ 0 <= nth 1 s 0 < 256 /\ 0 <= nth 2 s 0 < 256 /\ 0 <= nth 3 s 0 < 256.
Proof. auto using wf_nth. Qed.

Theorem push_profile c s : wf_codes (c :: s) -> p_push (prof s) c = prof (c :: s).
Proof.
  intros H. apply wf_inv in H as [Hc Hs]. pose proof (wf_slots s Hs).
  unfold p_push, prof, p_recompute, W32. cbn [nth]. Z.div_mod_to_equations. lia.
Qed.

Theorem pop_profile c s : wf_codes (c :: s) -> p_pop (prof (c :: s)) s = prof s.
Proof.
  intros H. apply wf_inv in H as [Hc Hs].
  unfold p_pop, prof, p_recompute. cbn [nth].
  destruct (Nat.leb_spec 4 (length s)) as [L|L]; [|rewrite (@nth_overflow _ s 3 0) by lia]; Z.div_mod_to_equations; lia.
Qed.

(* drop recomputes: true by the definition of prof *)
Theorem drop_profile n s : p_recompute (skipn n s) = prof (skipn n s).
Proof. reflexivity. Qed.

Inductive sop := Push (c : Z) | Pop | Drop (n : nat).

Fixpoint run_ops (ops : list sop) (st : codes * Z) : option (codes * Z) :=
  match ops with
  | [] => Some st
  | Push c :: r => run_ops r (c :: fst st, p_push (snd st) c)
  | Pop :: r =>
    match fst st with
    | [] => None
    | _ :: rest => run_ops r (rest, p_pop (snd st) rest)
    end
  | Drop n :: r =>
    if Nat.leb n (length (fst st)) then run_ops r (skipn n (fst st), p_recompute (skipn n (fst st))) else None
  end.

Lemma wf_skipn n : forall s, wf_codes s -> wf_codes (skipn n s).
Proof. induction n as [|n IH]; intros [|c s] H; cbn; auto. apply wf_inv in H as [_ H]. auto. Qed.

(* any history of pushes, pops and drops: the cached word is the profile of the stack *)
Theorem profile_invariant ops : forall s p s' p',
  wf_codes s -> p = prof s ->
  Forall (fun o => match o with Push c => 0 < c < 256 | _ => True end) ops ->
  run_ops ops (s, p) = Some (s', p') -> wf_codes s' /\ p' = prof s'.
Proof.
  induction ops as [|o ops IH]; intros s p s' p' Hs Hp Hops H; cbn [run_ops fst snd] in H.
  - inversion H; subst. auto.
  - inversion Hops as [|? ? Ho Hr]; subst.
    destruct o as [c| |n].
    + eapply IH; [| |exact Hr|exact H].
      * constructor; auto.
      * apply push_profile. constructor; auto.
    + destruct s as [|c rest]; [discriminate|].
      eapply IH; [| |exact Hr|exact H].
      * apply wf_inv in Hs as [_ Hs]. auto.
      * apply pop_profile; auto.
    + destruct (Nat.leb n (length s)); [|discriminate].
      eapply IH; [| |exact Hr|exact H]; auto using wf_skipn.
Qed.

(* one slot further down: the low k+1 slots of the word of `c :: s` are c in front of the low k slots of the word of s *)
Lemma prof_cons_mod c s k : (k <= 3)%nat -> wf_codes (c :: s) ->
  prof (c :: s) mod 256 ^ Z.of_nat (S k) = c + 256 * (prof s mod 256 ^ Z.of_nat k).
Proof.
  intros Hk H. apply wf_inv in H as [Hc Hs]. pose proof (wf_slots s Hs).
  assert (0 < 256 ^ Z.of_nat k) as Pk by (apply Z.pow_pos_nonneg; lia).
  replace (prof (c :: s)) with (c + (prof s mod 256 ^ 3) * 256)
    by (unfold prof, p_recompute; cbn [nth]; change (256 ^ 3) with 16777216; Z.div_mod_to_equations; lia).
  rewrite Nat2Z.inj_succ, Z.pow_succ_r, Z.rem_mul_r, Z.mod_add, Z.div_add, Z.mod_small, Z.div_small, Z.add_0_l by lia.
  rewrite <- Zmod_div_mod; [reflexivity|exact Pk|lia|].
  exists (256 ^ Z.of_nat (3 - k)). rewrite <- Z.pow_add_r by lia. f_equal. lia.
Qed.

Lemma imprint_cons t ts : (length ts <= 3)%nat -> sel_imprint (t :: ts) = t + 256 * sel_imprint ts.
Proof.
  intros L. unfold sel_imprint. rewrite !firstn_all2 by (cbn [length]; lia). unfold p_recompute. cbn [nth].
  rewrite (nth_overflow ts 0 L). lia.
Qed.

(* dispatch depends only on the types near the top: a selector of up to four types matches the profile iff the
   top types are the selector's *)
Theorem selector_matches_iff ts : forall s, (length ts <= 4)%nat -> wf_codes ts -> wf_codes s ->
  (sel_matches ts (prof s) = true <-> exists r, s = ts ++ r).
Proof.
  induction ts as [|t ts IH]; intros s L Ht Hs; unfold sel_matches in *.
  - cbn. rewrite Z.mod_1_r. split; eauto.
  - apply wf_inv in Ht as [Ht Hts]. cbn [length] in L. rewrite imprint_cons by lia. cbn [length]. destruct s as [|c s].
    + (* nothing on the stack: the word is 0, the imprint is not *)
      assert (0 <= sel_imprint ts).
      { unfold sel_imprint. rewrite firstn_all2 by lia. pose proof (wf_slots ts Hts). unfold p_recompute. lia. }
      rewrite Z.mod_0_l by lia. split; [lia|]. intros [r E]. discriminate E.
    + rewrite prof_cons_mod by (auto; lia). apply wf_inv in Hs as [Hc Hs]. specialize (IH s ltac:(lia) Hts Hs).
      rewrite Z.eqb_eq in *. split.
      * (* both sides are a digit below 256 in front of 256 times a number: the digits agree, and so does the rest *)
        intros E. assert (c = t /\ prof s mod 256 ^ Z.of_nat (length ts) = sel_imprint ts) as [-> E'] by lia.
        destruct (proj1 IH E') as [r ->]. exists r. reflexivity.
      * intros [r [= -> ->]]. rewrite (proj2 IH) by eauto. reflexivity.
Qed.

Theorem selector1_matches_iff t s : 0 < t < 256 -> wf_codes s ->
  (sel_matches [t] (prof s) = true <-> exists r, s = t :: r).
Proof. intros Ht. apply (selector_matches_iff [t]); [cbn; lia|]. constructor; [exact Ht|constructor]. Qed.

Theorem selector2_matches_iff t1 t0 s : 0 < t0 < 256 -> 0 < t1 < 256 -> wf_codes s ->
  (sel_matches [t0; t1] (prof s) = true <-> exists r, s = t0 :: t1 :: r).
Proof. intros H0 H1. apply (selector_matches_iff [t0; t1]); [cbn; lia|]. repeat (constructor; [assumption|]). constructor. Qed.
