(* `==` on stacks (stack_eqb) is symmetric and transitive, and reflexive on
   stacks that contain no closure. *)
From Coq Require Import ZArith List Bool.
From Dwgrep Require Import Value.
Import ListNotations.
Local Open Scope Z_scope.

Section ValueInd.
  Variable Q : value -> Prop.
  Hypothesis Hcst : forall z d p, Q (VCst z d p).
  Hypothesis Hstr : forall s p, Q (VStr s p).
  Hypothesis Hseq : forall l p, Forall Q l -> Q (VSeq l p).
  Hypothesis Hclo : forall b e p, Q (VClo b e p).
  Fixpoint value_ind2 (v : value) : Q v :=
    match v with
    | VCst z d p => Hcst z d p
    | VStr s p => Hstr s p
    | VSeq l p => Hseq l p ((fix go (l : list value) : Forall Q l :=
                               match l with [] => Forall_nil Q | x :: t => Forall_cons x (value_ind2 x) (go t) end) l)
    | VClo b e p => Hclo b e p
    end.
End ValueInd.

Lemma cdom_eqb_refl d : cdom_eqb d d = true.
Proof. destruct d; cbn; auto. apply N.eqb_refl. Qed.

Lemma cdom_eqb_eq a b : cdom_eqb a b = true -> a = b.
Proof. destruct a, b; cbn; try discriminate; auto. intros H. apply N.eqb_eq in H. subst. auto. Qed.

Lemma bytes_eqb_refl s : bytes_eqb s s = true.
Proof. induction s as [|x s IH]; cbn; auto. rewrite N.eqb_refl. auto. Qed.

Lemma bytes_eqb_eq a : forall b, bytes_eqb a b = true -> a = b.
Proof.
  induction a as [|x a IH]; intros [|y b]; cbn; try discriminate; auto.
  intros H. apply andb_true_iff in H as [H1 H2]. apply N.eqb_eq in H1. subst. f_equal. auto.
Qed.

(* two constants are == when their numbers are equal and their domains are of one class:
   all arithmetic domains form one class, every other domain is a class of its own *)
Definition dclass (d : cdom) : option cdom := if dom_arith d then None else Some d.

Lemma dclass_eq d e : dom_arith d && dom_arith e || cdom_eqb d e = true <-> dclass d = dclass e.
Proof.
  unfold dclass. split.
  - intros H. apply orb_true_iff in H as [H|H];
      [apply andb_true_iff in H as [-> ->] | apply cdom_eqb_eq in H as ->]; reflexivity.
  - destruct (dom_arith d), (dom_arith e); cbn [andb orb]; try discriminate; [reflexivity|].
    intros [= ->]. apply cdom_eqb_refl.
Qed.

Lemma cst_eqb_iff x d y e :
  (x =? y) && (dom_arith d && dom_arith e || cdom_eqb d e) = true <-> x = y /\ dclass d = dclass e.
Proof. rewrite andb_true_iff, Z.eqb_eq, dclass_eq. reflexivity. Qed.

Lemma value_eqb_seq l p m q : value_eqb (VSeq l p) (VSeq m q) = stack_eqb l m.
Proof. reflexivity. Qed.

Fixpoint no_closure (v : value) : bool :=
  match v with
  | VClo _ _ _ => false
  | VSeq l _ => forallb no_closure l
  | _ => true
  end.

(* The laws of == with the first argument fixed: what an induction on that
   argument can carry, for values and for lists of values alike. *)
Definition eq_laws {A} (ok : A -> bool) (E : A -> A -> bool) (x : A) : Prop :=
  (ok x = true -> E x x = true) /\
  (forall y, E x y = true -> E y x = true) /\
  (forall y z, E x y = true -> E y z = true -> E x z = true).

Lemma list_eq_laws l : Forall (eq_laws no_closure value_eqb) l -> eq_laws (forallb no_closure) stack_eqb l.
Proof.
  induction 1 as [|x l (R & S & T) _ (Rl & Sl & Tl)].
  - split; [reflexivity|]. split; [intros [|y m] | intros [|y m] [|z n]]; auto.
  - split; [|split; [intros [|y m] | intros [|y m] [|z n]]]; try discriminate; cbn [forallb stack_eqb].
    + intros H. apply andb_true_iff in H as [H1 H2]. rewrite R, Rl by assumption. reflexivity.
    + intros H. apply andb_true_iff in H as [H1 H2]. rewrite (S y), (Sl m) by assumption. reflexivity.
    + intros H K. apply andb_true_iff in H as [H1 H2]. apply andb_true_iff in K as [K1 K2].
      rewrite (T y z), (Tl m n) by assumption. reflexivity.
Qed.

Lemma value_eq_laws v : eq_laws no_closure value_eqb v.
Proof.
  induction v as [x d p|s p|l p IH|b e p] using value_ind2.
  - split; [|split; [intros [y e q| | |] | intros [y e q| | |] [z f r| | |]]]; try discriminate;
      cbn [value_eqb]; rewrite !cst_eqb_iff.
    + auto.
    + intros [-> H]. auto.
    + intros [-> H] [-> K]. split; [reflexivity | congruence].
  - split; [|split; [intros [|t q| |] | intros [|t q| |] [|u r| |]]]; try discriminate; cbn [value_eqb].
    + intros _. apply bytes_eqb_refl.
    + intros H. apply bytes_eqb_eq in H as <-. apply bytes_eqb_refl.
    + intros H. apply bytes_eqb_eq in H as <-. auto.
  - destruct (list_eq_laws l IH) as (R & S & T).
    split; [|split; [intros [| |m q|] | intros [| |m q|] [| |n r|]]]; try discriminate; rewrite ?value_eqb_seq;
      [exact R | apply S | apply T].
  - split; [|split]; discriminate.
Qed.

Lemma stack_eq_laws a : eq_laws (forallb no_closure) stack_eqb a.
Proof. apply list_eq_laws, Forall_forall. intros v _. apply value_eq_laws. Qed.

Theorem stack_eqb_sym a b : stack_eqb a b = true -> stack_eqb b a = true.
Proof. apply stack_eq_laws. Qed.

Theorem stack_eqb_trans a b c : stack_eqb a b = true -> stack_eqb b c = true -> stack_eqb a c = true.
Proof. apply stack_eq_laws. Qed.

Definition closure_free (s : stack) : Prop := forallb no_closure s = true.

Theorem stack_eqb_refl a : closure_free a -> stack_eqb a a = true.
Proof. apply stack_eq_laws. Qed.
