(* What value_die::cmp is and is not: reflexive; swapping the arguments gives the opposite
   result (die_cmp_antisym is this duality, `die_cmp b a = CompOpp (die_cmp a b)`); among cooked
   DIEs reached through the same number of imports Eq only for identical values and transitive;
   NOT transitive when DIEs with and without an import chain meet (finding D32). *)
From Coq Require Import NArith List Bool.
From Dwgrep Require Import CmpProofs DieCmp.
Import ListNotations.
Import DieCmpM.

Fixpoint die_ind' (P : die -> Prop)
  (H0 : forall f o r, P (Die f o r None))
  (HS : forall f o r x, P x -> P (Die f o r (Some x))) (a : die) : P a :=
  match a with
  | Die f o r None => H0 f o r
  | Die f o r (Some x) => HS f o r x (die_ind' P H0 HS x)
  end.

Lemma die_cmp_refl a : die_cmp a a = Eq.
Proof.
  induction a as [f o r|f o r x IH] using die_ind'; cbn [die_cmp]; rewrite !N.compare_refl; destruct r; auto.
Qed.

Lemma die_cmp_antisym a : forall b, die_cmp b a = CompOpp (die_cmp a b).
Proof.
  induction a as [f o r|f o r x IH] using die_ind'; intros [g p s [y|]]; cbn [die_cmp];
    rewrite (N.compare_antisym f g), (N.compare_antisym o p);
    destruct (N.compare f g); cbn [CompOpp]; auto;
    destruct (N.compare o p); cbn [CompOpp]; auto;
    rewrite (orb_comm s r); destruct (r || s); cbn [CompOpp]; auto.
  (* the last `auto` is the induction hypothesis: equal keys, both cooked, both reached through an import *)
Qed.

Lemma cooked_inv f o r i : cooked (Die f o r i) = true -> r = false.
Proof. destruct i; cbn [cooked]; destruct r; cbn; congruence. Qed.

(* among cooked DIEs of one depth the comparison is the lexicographic order of the
   (Dwarf, offset) pairs along the chain: Eq only for identical values, transitive *)

Lemma die_cmp_eq_same a : forall b, cooked a = true -> cooked b = true -> depth a = depth b ->
  die_cmp a b = Eq -> a = b.
Proof.
  induction a as [f o r|f o r x IH] using die_ind'; intros [g p s [y|]] Ca Cb D E;
    cbn [depth] in D; try discriminate;
    pose proof (cooked_inv _ _ _ _ Ca) as ->; pose proof (cooked_inv _ _ _ _ Cb) as ->;
    cbn [die_cmp orb] in E;
    destruct (N.compare f g) eqn:Ef; try discriminate; apply N.compare_eq in Ef; subst g;
    destruct (N.compare o p) eqn:Eo; try discriminate; apply N.compare_eq in Eo; subst p.
  - reflexivity.
  - injection D as D. rewrite (IH y Ca Cb D E). reflexivity.
Qed.

Fixpoint key (a : die) : list (N * N) :=
  match a with Die f o _ None => [(f, o)] | Die f o _ (Some x) => (f, o) :: key x end.

Definition pair_cmp : N * N -> N * N -> comparison :=
  lexi (fun x y => N.compare (fst x) (fst y)) (fun x y => N.compare (snd x) (snd y)).

Lemma die_cmp_lex a : forall b, cooked a = true -> cooked b = true -> depth a = depth b ->
  die_cmp a b = list_lex pair_cmp (key a) (key b).
Proof.
  induction a as [f o r|f o r x IH] using die_ind'; intros [g p s [y|]] Ca Cb D; cbn [depth] in D; try discriminate;
    rewrite (cooked_inv _ _ _ _ Ca), (cooked_inv _ _ _ _ Cb); cbn [die_cmp orb key list_lex]; unfold pair_cmp at 1, lexi; cbn [fst snd].
  - destruct (N.compare f g); reflexivity.
  - cbn [cooked] in Ca, Cb. apply andb_prop in Ca, Cb. injection D as D. rewrite (IH y (proj2 Ca) (proj2 Cb) D).
    destruct (N.compare f g); reflexivity.
Qed.

Lemma lawful_keys : lawful (list_lex pair_cmp).
Proof. apply lawful_of_laws_at, list_lex_laws. intros x. apply laws_at_lexi; [apply (laws_at_on fst), laws_N|apply (laws_at_on snd), laws_N]. Qed.

Lemma die_cmp_trans a : forall b c r, cooked a = true -> cooked b = true -> cooked c = true ->
  depth a = depth b -> depth b = depth c ->
  die_cmp a b = r -> die_cmp b c = r -> die_cmp a c = r.
Proof.
  intros b c r Ca Cb Cc D1 D2. rewrite !die_cmp_lex by congruence.
  destruct r; [apply (law_eq_trans _ lawful_keys)|apply (law_lt_trans _ lawful_keys)|apply (lawful_gt_trans _ lawful_keys)].
Qed.

(* ... and not beyond: a DIE without an import chain equals the same DIE under every chain *)
Definition via (imp_off : N) : die := Die 0 20 false (Some (Die 0 imp_off false None)).
Definition plain : die := Die 0 20 false None.

Lemma die_eq_not_transitive :
  die_cmp (via 48) plain = Eq /\ die_cmp plain (via 155) = Eq /\ die_cmp (via 48) (via 155) = Lt.
Proof. vm_compute. auto. Qed.

Lemma cu_cmp_eq a b : cu_cmp a b = Eq <-> a = b.
Proof.
  destruct a as [m o], b as [n p]. unfold cu_cmp; cbn [fst snd]. split.
  - destruct (N.compare m n) eqn:E; try discriminate. apply N.compare_eq in E. intros H. apply N.compare_eq in H. congruence.
  - intros [= -> ->]. rewrite !N.compare_refl. reflexivity.
Qed.

(* the whole truth about == on cooked DIEs of one file: the same offset, and one chain of imports
   (innermost first) is an initial part of the other *)
Fixpoint imp_of (chain : list N) : option die :=
  match chain with
  | [] => None
  | c :: rest => Some (Die 0 c false (imp_of rest))
  end.
Definition route (off : N) (chain : list N) : die := Die 0 off false (imp_of chain).

Fixpoint prefix (a b : list N) : Prop :=
  match a, b with
  | [], _ => True
  | x :: a', y :: b' => x = y /\ prefix a' b'
  | _ :: _, [] => False
  end.

Lemma route_eq_iff o1 c1 : forall o2 c2,
  die_cmp (route o1 c1) (route o2 c2) = Eq <-> o1 = o2 /\ (prefix c1 c2 \/ prefix c2 c1).
Proof.
  revert o1. induction c1 as [|x c1 IH]; intros o1 o2 c2; unfold route; cbn [imp_of die_cmp N.compare orb];
    (* different offsets: neither side holds *)
    (destruct (N.compare_spec o1 o2) as [->|L|L]; [|split; [discriminate|intros [-> _]; destruct (N.lt_irrefl _ L)]..]).
  - cbn [prefix]; tauto.
  - destruct c2 as [|y c2]; cbn [imp_of prefix]; [tauto|].
    specialize (IH x y c2). rewrite IH. split.
    + intros [-> [P|P]]; auto.
    + intros [_ [[-> P]|[-> P]]]; auto.
Qed.

Corollary chainless_equals_every_route o c : die_cmp (route o []) (route o c) = Eq.
Proof. apply route_eq_iff. split; [reflexivity|]. left. exact I. Qed.

Lemma prefix_same_length a : forall b, length a = length b -> prefix a b -> a = b.
Proof.
  induction a as [|x a IH]; intros [|y b] L P; try discriminate L; [reflexivity|].
  destruct P as [-> P]. injection L as L. rewrite (IH b L P). reflexivity.
Qed.

Corollary equal_length_routes o1 c1 o2 c2 : length c1 = length c2 ->
  die_cmp (route o1 c1) (route o2 c2) = Eq -> o1 = o2 /\ c1 = c2.
Proof.
  intros L H. apply route_eq_iff in H. destruct H as [-> [P|P]]; split; auto.
  - apply prefix_same_length; assumption.
  - symmetry. apply prefix_same_length; [symmetry; exact L|exact P].
Qed.
