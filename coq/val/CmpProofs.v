(* The comparison of Cmp.v is one consistent total (pre)order. *)
From Coq Require Import ZArith NArith List Bool Lia RelationClasses.
From Dwgrep Require Import CovModel Cmp.
Import ListNotations.
Local Open Scope Z_scope.

(* [C] behaves like the three-way comparison of a total preorder *)
Record lawful {A} (C : A -> A -> comparison) : Prop := {
  law_refl : forall a, C a a = Eq;
  law_sym : forall a b, C a b = CompOpp (C b a);
  law_lt_trans : forall a b c, C a b = Lt -> C b c = Lt -> C a c = Lt;
  law_eq_trans : forall a b c, C a b = Eq -> C b c = Eq -> C a c = Eq;
  law_eq_lt : forall a b c, C a b = Eq -> C b c = Lt -> C a c = Lt;
  law_lt_eq : forall a b c, C a b = Lt -> C b c = Eq -> C a c = Lt
}.

(* The laws in the form the proofs use: for one fixed first argument (what a
   structural induction on that argument can carry), and with all of
   transitivity in one clause: [chains p q r] says that r is what x ? z must be
   when x ? y = p and y ? z = q (nothing, when p and q point in opposite
   directions). *)
Definition chains (p q r : comparison) : Prop :=
  match p, q with
  | Eq, _ => r = q
  | _, Eq => r = p
  | Lt, Lt | Gt, Gt => r = p
  | _, _ => True
  end.

Definition laws_at {A} (C : A -> A -> comparison) (x : A) : Prop :=
  (forall y, C x y = CompOpp (C y x)) /\ (forall y z, chains (C x y) (C y z) (C x z)).

Lemma laws_at_refl {A} (C : A -> A -> comparison) x : laws_at C x -> C x x = Eq.
Proof. intros [S _]. specialize (S x). destruct (C x x); auto; discriminate. Qed.

Lemma lawful_of_laws_at {A} (C : A -> A -> comparison) : (forall x, laws_at C x) -> lawful C.
Proof.
  intros H.
  assert (Tr : forall a b c p q, C a b = p -> C b c = q -> chains p q (C a c)) by (intros a b c p q <- <-; apply H).
  split; [intros a; apply laws_at_refl, H | intros a; apply H | intros a b c; exact (Tr a b c _ _) ..].
Qed.

Lemma lawful_gt_trans {A} (C : A -> A -> comparison) : lawful C ->
  forall a b c, C a b = Gt -> C b c = Gt -> C a c = Gt.
Proof.
  (* the law for Lt read backwards *)
  intros [_ S T _ _ _] a b c. rewrite (S a b), (S b c), (S a c).
  destruct (C b a) eqn:E1; try discriminate. destruct (C c b) eqn:E2; try discriminate. rewrite (T c b a E2 E1). reflexivity.
Qed.

Lemma laws_at_of_spec {A} (lt : A -> A -> Prop) (C : A -> A -> comparison) : StrictOrder lt ->
  (forall x y, CompareSpec (x = y) (lt x y) (lt y x) (C x y)) -> forall x, laws_at C x.
Proof.
  intros SO HS x.
  assert (forall a, lt a a -> False) as IR by (intros a; apply irreflexivity).
  assert (forall a b c, lt a b -> lt b c -> lt a c) as TR by (intros a b c; apply transitivity).
  split.
  - intros y. destruct (HS x y), (HS y x); try reflexivity; exfalso; subst; eauto.
  - intros y z. destruct (HS x y), (HS y z), (HS x z); cbn; try reflexivity; exfalso; subst; eauto.
Qed.

Lemma laws_Z x : laws_at Z.compare x.
Proof. exact (laws_at_of_spec Z.lt _ _ Z.compare_spec x). Qed.
Lemma laws_N x : laws_at N.compare x.
Proof. exact (laws_at_of_spec N.lt _ _ N.compare_spec x). Qed.
Lemma laws_nat x : laws_at Nat.compare x.
Proof. exact (laws_at_of_spec Nat.lt _ _ Nat.compare_spec x). Qed.

Definition lx (p q : comparison) : comparison := match p with Eq => q | Lt => Lt | Gt => Gt end.

(* the second components need to chain only where the first do not decide *)
Lemma chains_lx p1 q1 r1 p2 q2 r2 : chains p1 q1 r1 -> (p1 = Eq -> q1 = Eq -> chains p2 q2 r2) ->
  chains (lx p1 p2) (lx q1 q2) (lx r1 r2).
Proof. intros H1 H2. destruct p1, q1; cbn in *; subst; auto; destruct p2; cbn; auto; destruct q2; auto. Qed.

Lemma lx_eq p q : lx p q = Eq <-> p = Eq /\ q = Eq.
Proof. destruct p; intuition discriminate. Qed.

Definition lexi {A} (C1 C2 : A -> A -> comparison) (a b : A) : comparison := lx (C1 a b) (C2 a b).

Lemma laws_at_lexi {A} (C1 C2 : A -> A -> comparison) x : laws_at C1 x -> laws_at C2 x -> laws_at (lexi C1 C2) x.
Proof.
  intros [S1 T1] [S2 T2]. unfold lexi. split.
  - intros y. rewrite S1, S2. destruct (C1 y x); reflexivity.
  - intros y z. apply chains_lx; auto.
Qed.

Lemma laws_at_on {A B} (f : A -> B) (C : B -> B -> comparison) x : laws_at C (f x) -> laws_at (fun a b => C (f a) (f b)) x.
Proof. intros [S T]. split; intros; [apply S|apply T]. Qed.

Definition cst_cmp (d : N) : cst -> cst -> comparison :=
  lexi (fun x y => N.compare (ckey d x) (ckey d y)) (fun x y => Z.compare (cv x) (cv y)).

Lemma cst_compare_lex d a b : compare_lt (cst_lt d) a b = cst_cmp d a b.
Proof.
  unfold compare_lt, cst_lt, cst_cmp, lexi, lx. rewrite !N.eqb_compare, !N.ltb_compare, !Z.ltb_compare.
  rewrite (N.compare_antisym (ckey d a) (ckey d b)), (Z.compare_antisym (cv a) (cv b)).
  destruct (ckey d a ?= ckey d b)%N; auto; destruct (cv a ?= cv b); reflexivity.
Qed.

Lemma laws_at_ext {A} (C C' : A -> A -> comparison) x : (forall a b, C a b = C' a b) -> laws_at C' x -> laws_at C x.
Proof. intros E [S T]. split; intros *; rewrite !E; [apply S|apply T]. Qed.

Theorem cst_laws d x : laws_at (compare_lt (cst_lt d)) x.
Proof.
  apply (laws_at_ext _ _ x (cst_compare_lex d)), laws_at_lexi; [apply (laws_at_on (ckey d)), laws_N | apply (laws_at_on cv), laws_Z].
Qed.

Lemma cst_eq_iff d a b : compare_lt (cst_lt d) a b = Eq <-> ckey d a = ckey d b /\ cv a = cv b.
Proof. rewrite cst_compare_lex. unfold cst_cmp, lexi. rewrite lx_eq, N.compare_eq_iff, Z.compare_eq_iff. reflexivity. Qed.

Lemma cst_arith_by_value d a b : arith a = true -> arith b = true ->
  compare_lt (cst_lt d) a b = Z.compare (cv a) (cv b).
Proof.
  intros Ha Hb. rewrite cst_compare_lex. unfold cst_cmp, lexi, lx, ckey. rewrite Ha, Hb, N.compare_refl. reflexivity.
Qed.

Fixpoint list_lex {A} (C : A -> A -> comparison) (a b : list A) : comparison :=
  match a, b with
  | [], [] => Eq
  | [], _ :: _ => Lt
  | _ :: _, [] => Gt
  | x :: a', y :: b' => match C x y with Eq => list_lex C a' b' | o => o end
  end.

Lemma list_lex_laws_at {A} (C : A -> A -> comparison) (l : list A) :
  Forall (laws_at C) l -> laws_at (list_lex C) l.
Proof.
  induction 1 as [|x l [S T] _ [S' T']]; (split; [intros [|y m]|intros [|y m] [|z n]]); cbn; auto.
  (* left are: [] against two non-empty lists; duality, and the chains through [] and through a non-empty list, at x :: l *)
  - destruct (C y z); auto. destruct (list_lex C m n); auto.
  - rewrite S, S'. destruct (C y x); reflexivity.
  - destruct (C x y); cbn; auto. destruct (list_lex C l m); cbn; auto.
  - exact (chains_lx _ _ _ _ _ _ (T y z) (fun _ _ => T' m n)).
Qed.

Lemma list_lex_laws {A} (C : A -> A -> comparison) : (forall x, laws_at C x) -> forall l, laws_at (list_lex C) l.
Proof. intros L l. apply list_lex_laws_at, Forall_forall. intros x _. apply L. Qed.

(* where the elements compare equal only with themselves, so do the lists *)
Lemma list_lex_eq {A} (C : A -> A -> comparison) : (forall x y, C x y = Eq -> x = y) ->
  forall a b, list_lex C a b = Eq -> a = b.
Proof.
  intros X. induction a as [|x a IH]; intros [|y b]; cbn; try discriminate; auto.
  destruct (C x y) eqn:E; try discriminate. intros H. rewrite (X x y E), (IH b H). reflexivity.
Qed.

Lemma bytes_cmp_lex a : forall b, bytes_cmp a b = list_lex N.compare a b.
Proof. induction a as [|x a IH]; intros [|y b]; cbn; auto. rewrite IH. reflexivity. Qed.

Theorem str_laws s : laws_at bytes_cmp s.
Proof. exact (laws_at_ext _ _ s (fun a => bytes_cmp_lex a) (list_lex_laws _ laws_N s)). Qed.

Definition rng_cmp : CovM.rng -> CovM.rng -> comparison :=
  lexi (fun r q => Z.compare (fst r) (fst q)) (fun r q => Z.compare (snd r) (snd q)).

Definition aset_cmp : cov -> cov -> comparison :=
  lexi (fun a b => Nat.compare (length a) (length b)) (list_lex rng_cmp).

Lemma cmp_ranges_lex a : forall b, length a = length b -> cmp_ranges a b = list_lex rng_cmp a b.
Proof.
  induction a as [|x a IH]; intros [|y b] L; cbn in *; try discriminate; auto. rewrite IH by lia.
  unfold rng_cmp, lexi, lx, rstart, rlen. destruct (fst x ?= fst y); reflexivity.
Qed.

Lemma w_cmp_lex a b : w_cmp a b = aset_cmp a b.
Proof.
  unfold w_cmp, aset_cmp, lexi, lx. destruct (Nat.compare_spec (length a) (length b)); auto.
  apply cmp_ranges_lex; auto.
Qed.

Theorem aset_laws a : laws_at w_cmp a.
Proof.
  apply (laws_at_ext _ _ a w_cmp_lex), laws_at_lexi; [apply (laws_at_on (@length _)), laws_nat|].
  apply list_lex_laws. intros r. apply laws_at_lexi; [apply (laws_at_on fst)|apply (laws_at_on snd)]; apply laws_Z.
Qed.

Lemma w_cmp_eq a b : w_cmp a b = Eq <-> a = b.
Proof.
  split; [|intros ->; apply laws_at_refl, aset_laws]. rewrite w_cmp_lex. unfold aset_cmp, lexi. rewrite lx_eq. intros [_ H].
  revert H. apply list_lex_eq. intros [s l] [s' l']. unfold rng_cmp, lexi. rewrite lx_eq, !Z.compare_eq_iff. cbn. intros [-> ->]. reflexivity.
Qed.

Section ValueInd.
  Variable P : value -> Prop.
  Hypothesis Hcst : forall c, P (VCst c).
  Hypothesis Hstr : forall s, P (VStr s).
  Hypothesis Hseq : forall l, Forall P l -> P (VSeq l).
  Hypothesis Haset : forall c, P (VAset c).
  Hypothesis Hop : forall t i, P (VOpaque t i).
  Fixpoint value_ind' (v : value) : P v :=
    match v with
    | VCst c => Hcst c
    | VStr s => Hstr s
    | VSeq l => Hseq l ((fix go (l : list value) : Forall P l :=
                           match l with [] => Forall_nil P | x :: t => Forall_cons x (value_ind' x) (go t) end) l)
    | VAset c => Haset c
    | VOpaque t i => Hop t i
    end.
End ValueInd.

(* A comparison on a type cut into classes by a rank: different ranks compare
   by rank, and on the class of [K p], which is the image of [K], it is [CK].
   Then the laws of [CK] at [p] are the laws of [C] at [K p]. *)
Lemma laws_at_ranked {A B} (rk : A -> N) (C : A -> A -> comparison) (K : B -> A) (CK : B -> B -> comparison) p :
  (forall a b, rk a <> rk b -> C a b = N.compare (rk a) (rk b)) ->
  (forall y, rk y = rk (K p) -> exists q, y = K q) ->
  (forall q r, C (K q) (K r) = CK q r) ->
  laws_at CK p -> laws_at C (K p).
Proof.
  intros D Cl E [S T]. destruct (laws_N (rk (K p))) as [SN TN].
  (* [C] is the rank, then [C]: a lexicographic product whose second component is looked at within a class only *)
  assert (X : forall a b, C a b = lx (rk a ?= rk b)%N (C a b)).
  { intros a b. destruct (N.eq_dec (rk a) (rk b)) as [e|n]; [rewrite e, N.compare_refl; reflexivity|].
    rewrite (D a b n). destruct (N.compare_spec (rk a) (rk b)); [contradiction|reflexivity..]. }
  split.
  - intros y. rewrite (X (K p) y), (X y (K p)), SN. destruct (N.compare_spec (rk y) (rk (K p))) as [e| |]; try reflexivity.
    destruct (Cl y e) as [q ->]. cbn. rewrite !E. apply S.
  - intros y z. rewrite (X (K p) y), (X y z), (X (K p) z). apply chains_lx; [apply TN|]. intros e1 e2. apply N.compare_eq in e1, e2.
    destruct (Cl y (eq_sym e1)) as [q ->], (Cl z (eq_sym (eq_trans e1 e2))) as [r ->]. rewrite !E. apply T.
Qed.

(* constructor rank, used only to make the comparison total in the proofs *)
Definition crank (v : value) : N :=
  match v with VCst _ => 0 | VStr _ => 1 | VSeq _ => 2 | VAset _ => 3 | VOpaque _ _ => 4 end%N.

(* total version of value::cmp *)
Fixpoint tcmp (d : N) (tc : tcodes) (a b : value) {struct a} : comparison :=
  match a, b with
  | VCst x, VCst y => compare_lt (cst_lt d) x y
  | VStr s, VStr t => bytes_cmp s t
  | VSeq l, VSeq m =>
    match Nat.compare (length l) (length m) with
    | Eq =>
      match list_lex N.compare (map (tcode tc) l) (map (tcode tc) m) with
      | Eq =>
        (fix go (l m : list value) {struct l} : comparison :=
           match l, m with
           | [], [] => Eq
           | [], _ :: _ => Lt
           | _ :: _, [] => Gt
           | x :: l', y :: m' => match tcmp d tc x y with Eq => go l' m' | o => o end
           end) l m
      | o => o
      end
    | o => o
    end
  | VAset c, VAset e => w_cmp c e
  | VOpaque t i, VOpaque t' i' => match N.compare t t' with Eq => N.compare i i' | o => o end
  | _, _ => N.compare (crank a) (crank b)
  end.

Definition seq_cmp (d : N) (tc : tcodes) : list value -> list value -> comparison :=
  lexi (fun l m => Nat.compare (length l) (length m))
       (lexi (fun l m => list_lex N.compare (map (tcode tc) l) (map (tcode tc) m)) (list_lex (tcmp d tc))).

Lemma tcmp_seq d tc l m : tcmp d tc (VSeq l) (VSeq m) = seq_cmp d tc l m.
Proof.
  cbn [tcmp]. unfold seq_cmp, lexi, lx. destruct (length l ?= length m)%nat; auto.
  destruct (list_lex N.compare (map (tcode tc) l) (map (tcode tc) m)); auto.
  revert m. induction l as [|x l IH]; intros [|y m]; cbn [list_lex]; auto.
  destruct (tcmp d tc x y); auto.
Qed.

Lemma tcmp_crank d tc a b : crank a <> crank b -> tcmp d tc a b = N.compare (crank a) (crank b).
Proof. destruct a, b; cbn; congruence. Qed.

Theorem tcmp_laws_at d tc : forall a, laws_at (tcmp d tc) a.
Proof.
  induction a as [c|s|l IH|c|t i] using value_ind'.
  - apply (laws_at_ranked crank _ VCst (compare_lt (cst_lt d))); [apply tcmp_crank| |reflexivity|apply cst_laws].
    intros []; try discriminate; eauto.
  - apply (laws_at_ranked crank _ VStr bytes_cmp); [apply tcmp_crank| |reflexivity|apply str_laws].
    intros []; try discriminate; eauto.
  - apply (laws_at_ranked crank _ VSeq (seq_cmp d tc)); [apply tcmp_crank| |apply tcmp_seq|].
    + intros []; try discriminate; eauto.
    + apply laws_at_lexi; [apply (laws_at_on (@length _)), laws_nat|].
      apply laws_at_lexi; [apply (laws_at_on (map (tcode tc))), list_lex_laws, laws_N|].
      apply list_lex_laws_at, IH.
  - apply (laws_at_ranked crank _ VAset w_cmp); [apply tcmp_crank| |reflexivity|apply aset_laws].
    intros []; try discriminate; eauto.
  - apply (laws_at_ranked crank _ (fun q => VOpaque (fst q) (snd q))
             (lexi (fun q r => N.compare (fst q) (fst r)) (fun q r => N.compare (snd q) (snd r))) (t, i));
      [apply tcmp_crank| |reflexivity|].
    + intros [| | | |t' i']; try discriminate. exists (t', i'). reflexivity.
    + apply laws_at_lexi; [apply (laws_at_on fst)|apply (laws_at_on snd)]; apply laws_N.
Qed.

(* the total order used by the comparison words: type code (reversed, as
   comparison_result does), then value *)
Definition ttop (d : N) (tc : tcodes) : value -> value -> comparison :=
  lexi (fun a b => N.compare (tcode tc b) (tcode tc a)) (tcmp d tc).

Theorem ttop_laws d tc a : laws_at (ttop d tc) a.
Proof.
  apply laws_at_lexi; [|apply tcmp_laws_at]. apply (laws_at_on (tcode tc) (fun x y => N.compare y x)).
  apply (laws_at_of_spec (Basics.flip N.lt)); [typeclasses eauto|]. intros x y. destruct (N.compare_spec y x); constructor; auto.
Qed.

Theorem ttop_lawful d tc : lawful (ttop d tc).
Proof. apply lawful_of_laws_at, ttop_laws. Qed.

Definition tcodes_distinct (tc : tcodes) : Prop :=
  NoDup [tc_cst tc; tc_str tc; tc_seq tc; tc_aset tc].

(* [crank] numbers the four comparable constructors as [tcodes_distinct] lists their codes *)
Lemma tcode_nth tc v : comparable v = true ->
  (N.to_nat (crank v) < 4)%nat /\
  tcode tc v = nth (N.to_nat (crank v)) [tc_cst tc; tc_str tc; tc_seq tc; tc_aset tc] 0%N.
Proof. destruct v; try discriminate; intros _; (split; [cbn; lia | reflexivity]). Qed.

Lemma same_tcode_same_ctor tc a b : tcodes_distinct tc ->
  comparable a = true -> comparable b = true -> tcode tc a = tcode tc b -> crank a = crank b.
Proof.
  intros ND Ca Cb E. destruct (tcode_nth tc a Ca) as [La Ea], (tcode_nth tc b Cb) as [Lb Eb].
  rewrite Ea, Eb in E. apply N2Nat.inj. exact (proj1 (NoDup_nth _ 0%N) ND _ _ La Lb E).
Qed.

Lemma types_cmp_lex tc l : forall m, length l = length m ->
  types_cmp tc l m = list_lex N.compare (map (tcode tc) l) (map (tcode tc) m).
Proof.
  induction l as [|x l IH]; intros [|y m] L; cbn in *; try discriminate; auto.
  destruct (tcode tc x ?= tcode tc y)%N; auto.
Qed.

Lemma vcmp_tcmp d tc : tcodes_distinct tc -> forall a b,
  comparable a = true -> comparable b = true -> tcode tc a = tcode tc b ->
  vcmp d tc a b = Some (tcmp d tc a b).
Proof.
  intros ND. induction a as [c|s|l IH|c|t i] using value_ind'; intros b Ca Cb E;
    pose proof (same_tcode_same_ctor tc _ _ ND Ca Cb E) as K; destruct b; try discriminate;
    try reflexivity.
  cbn [vcmp tcmp].
  destruct (Nat.compare_spec (length l) (length l0)) as [L|L|L]; try reflexivity.
  rewrite (types_cmp_lex tc l l0 L).
  destruct (list_lex N.compare (map (tcode tc) l) (map (tcode tc) l0)) eqn:TY; try reflexivity.
  apply (list_lex_eq _ N.compare_eq) in TY.
  cbn [comparable] in Ca, Cb. clear E K L.
  revert l0 Cb TY. induction l as [|x l IHl]; intros [|y m] Cb TY; cbn in TY; try discriminate; try reflexivity.
  inversion IH as [|? ? Hx Hl]. injection TY as T1 T2.
  cbn [forallb] in Ca, Cb. apply andb_true_iff in Ca as [Cx Cl]. apply andb_true_iff in Cb as [Cy Cm].
  rewrite (Hx y Cx Cy T1). destruct (tcmp d tc x y); try reflexivity. apply IHl; auto.
Qed.

Theorem cmp_top_total d tc a b : tcodes_distinct tc ->
  comparable a = true -> comparable b = true -> cmp_top d tc a b = Some (ttop d tc a b).
Proof.
  intros ND Ca Cb. unfold cmp_top, ttop, lexi, lx.
  rewrite !N.ltb_compare, (N.compare_antisym (tcode tc b) (tcode tc a)).
  destruct (tcode tc b ?= tcode tc a)%N eqn:E; cbn; auto. apply N.compare_eq in E. apply vcmp_tcmp; auto.
Qed.

Lemma cmp_top_same_type d tc a b : tcode tc a = tcode tc b -> cmp_top d tc a b = vcmp d tc a b.
Proof. intros E. unfold cmp_top. rewrite E, N.ltb_irrefl. reflexivity. Qed.

(* On comparable values each word reads the total order [ttop] ([cmp_top_total]),
   so the laws of the words are laws of [ttop]. *)
Section Words.
  Variables (d : N) (tc : tcodes).
  Hypothesis ND : tcodes_distinct tc.
  Let ok (v : value) := comparable v = true.

  Theorem words_trichotomy a b : ok a -> ok b ->
    (w_lt d tc a b = Some true /\ w_eq d tc a b = Some false /\ w_gt d tc a b = Some false) \/
    (w_lt d tc a b = Some false /\ w_eq d tc a b = Some true /\ w_gt d tc a b = Some false) \/
    (w_lt d tc a b = Some false /\ w_eq d tc a b = Some false /\ w_gt d tc a b = Some true).
  Proof.
    intros Ha Hb. unfold w_lt, w_eq, w_gt. rewrite (cmp_top_total d tc a b ND Ha Hb).
    destruct (ttop d tc a b); auto.
  Qed.

  Theorem words_eq_refl a : ok a -> w_eq d tc a a = Some true.
  Proof. intros Ha. unfold w_eq. rewrite (cmp_top_total d tc a a ND Ha Ha), (law_refl _ (ttop_lawful d tc)). reflexivity. Qed.

  Theorem words_eq_sym a b : ok a -> ok b -> w_eq d tc a b = Some true -> w_eq d tc b a = Some true.
  Proof.
    intros Ha Hb. unfold w_eq. rewrite !(cmp_top_total d tc) by assumption.
    rewrite (law_sym _ (ttop_lawful d tc) b a). destruct (ttop d tc a b); auto.
  Qed.

  Theorem words_eq_trans a b c : ok a -> ok b -> ok c ->
    w_eq d tc a b = Some true -> w_eq d tc b c = Some true -> w_eq d tc a c = Some true.
  Proof.
    intros Ha Hb Hc. unfold w_eq. rewrite !(cmp_top_total d tc) by assumption.
    destruct (ttop d tc a b) eqn:E1; try discriminate. destruct (ttop d tc b c) eqn:E2; try discriminate.
    rewrite (law_eq_trans _ (ttop_lawful d tc) _ _ _ E1 E2). auto.
  Qed.

  Theorem words_lt_trans a b c : ok a -> ok b -> ok c ->
    w_lt d tc a b = Some true -> w_lt d tc b c = Some true -> w_lt d tc a c = Some true.
  Proof.
    intros Ha Hb Hc. unfold w_lt. rewrite !(cmp_top_total d tc) by assumption.
    destruct (ttop d tc a b) eqn:E1; try discriminate. destruct (ttop d tc b c) eqn:E2; try discriminate.
    rewrite (law_lt_trans _ (ttop_lawful d tc) _ _ _ E1 E2). auto.
  Qed.

  Theorem words_lt_antisym a b : ok a -> ok b -> w_lt d tc a b = Some true -> w_lt d tc b a = Some false.
  Proof.
    intros Ha Hb. unfold w_lt. rewrite !(cmp_top_total d tc) by assumption.
    rewrite (law_sym _ (ttop_lawful d tc) b a). destruct (ttop d tc a b); cbn; auto; discriminate.
  Qed.

  Theorem words_lt_gt_dual a b : ok a -> ok b -> w_lt d tc a b = w_gt d tc b a.
  Proof.
    intros Ha Hb. unfold w_lt, w_gt. rewrite !(cmp_top_total d tc) by assumption.
    rewrite (law_sym _ (ttop_lawful d tc) b a). destruct (ttop d tc a b); reflexivity.
  Qed.

  (* == is a congruence for <: a strict *weak* order, what std::set needs *)
  Theorem words_eq_lt_compat a b c : ok a -> ok b -> ok c ->
    w_eq d tc a b = Some true ->
    w_lt d tc a c = w_lt d tc b c /\ w_lt d tc c a = w_lt d tc c b.
  Proof.
    intros Ha Hb Hc. unfold w_eq, w_lt. rewrite !(cmp_top_total d tc) by assumption.
    destruct (ttop d tc a b) eqn:E1; try discriminate. intros _.
    destruct (ttop_laws d tc b) as [S T]. specialize (T a c).
    destruct (ttop_laws d tc c) as [_ T']. specialize (T' a b).
    rewrite (S a), E1 in T. rewrite E1 in T'. cbn in T. rewrite T.
    destruct (ttop d tc c a); cbn in T'; rewrite T'; auto.
  Qed.

  Theorem words_aliases a b :
    w_ge d tc a b = onot (w_lt d tc a b) /\ w_le d tc a b = onot (w_gt d tc a b) /\
    w_ne d tc a b = onot (w_eq d tc a b).
  Proof. repeat split; reflexivity. Qed.

  Theorem words_cross_type_no_error a b : ok a -> ok b -> cmp_top d tc a b <> None.
  Proof. intros Ha Hb. rewrite (cmp_top_total d tc a b ND Ha Hb). discriminate. Qed.

  Theorem words_arith_by_value x y : arith x = true -> arith y = true ->
    w_lt d tc (VCst x) (VCst y) = Some (cv x <? cv y) /\ w_eq d tc (VCst x) (VCst y) = Some (cv x =? cv y).
  Proof.
    intros Hx Hy. unfold w_lt, w_eq. rewrite cmp_top_same_type by reflexivity. cbn [vcmp holds].
    rewrite (cst_arith_by_value d x y Hx Hy), Z.ltb_compare, Z.eqb_compare.
    auto.
  Qed.

  Theorem words_unrelated_never_equal x y : ckey d x <> ckey d y ->
    w_eq d tc (VCst x) (VCst y) = Some false.
  Proof.
    intros K. unfold w_eq. rewrite cmp_top_same_type by reflexivity. cbn [vcmp holds].
    destruct (compare_lt (cst_lt d) x y) eqn:E; auto.
    apply cst_eq_iff in E. tauto.
  Qed.

  Theorem words_seq_length_first l m : (length l < length m)%nat ->
    w_lt d tc (VSeq l) (VSeq m) = Some true.
  Proof.
    intros Lm. unfold w_lt. rewrite cmp_top_same_type by reflexivity. cbn [vcmp].
    apply Nat.compare_lt_iff in Lm. rewrite Lm. reflexivity.
  Qed.
End Words.
