From Coq Require Import ZArith List.
From Dwgrep Require Import Value ValueProofs Tree Build Den Scope.
Import ListNotations.

Lemma scoped_outs_env env r evs ab : scoped env r = DOk evs ab ->
  forall s e, In (DOut s e) evs -> e = env.
Proof.
  destruct r as [| |evs0 ab0]; cbn; try discriminate. intros H. inversion H.
  intros s e Hin. apply in_map_iff in Hin. destruct Hin as ([s0 e0|k] & E & _); inversion E; auto.
Qed.

Theorem scope_no_leak P prog f t env stk evs ab :
  den P prog (S f) (TScope t) env stk = DOk evs ab ->
  forall s e, In (DOut s e) evs -> e = env.
Proof. cbn [den]. apply scoped_outs_env. Qed.

Lemma seq_ok_single s e r : seq (ok [DOut s e]) r = match r with DOk eb ab => (if Nat.ltb event_cap (1 + length eb) then DFuel else DOk (DOut s e :: eb) ab) | o => o end.
Proof. reflexivity. Qed.

(* `|A B|`: the parser emits BIND B, BIND A; the rightmost identifier gets TOS *)
Theorem bind_rightmost_tos P prog f a b v1 v2 r env :
  den P prog (S (S f)) (TCat [TBind b; TBind a]) env (v1 :: v2 :: r)
  = ok [DOut r ((a, v2) :: (b, v1) :: env)].
Proof. reflexivity. Qed.

Theorem inner_shadows n v env : dlookup ((n, v) :: env) n = Some v.
Proof. cbn. rewrite bytes_eqb_refl. reflexivity. Qed.

Definition is_closure (v : value) : bool := match v with VClo _ _ _ => true | _ => false end.

Theorem read_sees_binding P prog f n v env stk :
  dlookup env n = Some v -> is_closure v = false ->
  den P prog (S f) (TRead n) env stk = ok [DOut (v :: stk) env].
Proof. intros H C. cbn [den]. rewrite H. destruct v; try discriminate; reflexivity. Qed.

Theorem read_applies_block P prog f n blk cenv pos env stk body :
  dlookup env n = Some (VClo blk cenv pos) -> find_block prog blk = Some body ->
  den P prog (S f) (TRead n) env stk = scoped env (den P prog f body (decode_env cenv) stk).
Proof. intros H B. cbn [den]. rewrite H, B. reflexivity. Qed.

Theorem block_captures_env P prog f id body env stk :
  den P prog (S f) (TBlock id body) env stk = ok [DOut (VClo id (encode_env env) 0 :: stk) env].
Proof. reflexivity. Qed.

Lemma decode_encode env : decode_env (encode_env env) = env.
Proof. induction env as [|[n v] e IH]; cbn; auto. f_equal. exact IH. Qed.

Theorem rebound_rejected_doc tc n vis cur : mem_name n cur = true -> wsc tc (TBind n) vis cur = SErrR SRebound.
Proof. intros H. cbn [wsc]. rewrite H. reflexivity. Qed.

Theorem rebound_rejected_build tc n upm sc rest rt up st b :
  assoc sc n = Some b ->
  build tc (TBind n) upm (mkbn (sc :: rest) rt) up st = BErr BRebound.
Proof. intros H. cbn [build]. unfold bbind. cbn [scopes]. rewrite H. reflexivity. Qed.

Theorem unbound_rejected_doc tc n vis cur : mem_name n vis = false -> assoc (voc_table tc) n = None ->
  wsc tc (TRead n) vis cur = SErrR SUnbound.
Proof. intros H V. cbn [wsc]. rewrite H, V. reflexivity. Qed.

Theorem unbound_rejected_build tc n upm st : assoc (voc_table tc) n = None ->
  build tc (TRead n) upm (mkbn [[]] true) UTop st = BErr BUnbound.
Proof. intros V. cbn [build]. unfold bfind. rewrite V. reflexivity. Qed.

(* an instance of the documented rule that a binding made in a branch of `,` is not
   visible after it: this one tree, not every ALT *)
Theorem alt_branch_no_leak tc n : assoc (voc_table tc) n = None ->
  well_scoped tc (TCat [TAlt [TBind n; TNop]; TRead n]) = Some SUnbound.
Proof.
  intros V. unfold well_scoped. cbn [wsc first_err err_of after mem_name existsb orb].
  rewrite V. reflexivity.
Qed.
