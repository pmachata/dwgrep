(* Parse trees as rose trees: the immediate subtrees of a node, the induction
   principle that `tree_ind` (which knows nothing of `list tree`) does not
   give, and the map over the immediate subtrees. *)
From Coq Require Import List.
From Dwgrep Require Import Tree.
Import ListNotations.

Definition kids (t : tree) : list tree :=
  match t with
  | TCat l | TAlt l | TOr l | TFormat l => l
  | TCapture c | TSubx _ c | TScope c | TBlock _ c | TStar c | TPlus c
  | TAssert c | TPredNot c | TPredSubx c => [c]
  | TIfElse c a b => [c; a; b]
  | TPredAnd a b | TPredOr a b => [a; b]
  | _ => []
  end.

Lemma tree_kids_ind (Q : tree -> Prop) :
  (forall t, (forall c, In c (kids t) -> Q c) -> Q t) -> forall t, Q t.
Proof.
  intros H. fix IH 1. intros t. apply H.
  assert (forall l, (forall c, In c l -> Q c) -> forall x c, In c (x :: l) -> Q c) as Cons
    by (intros l Hl x c [<-|Hc]; [apply IH|apply Hl, Hc]).
  destruct t; cbn [kids]; repeat apply Cons; try (intros c []);
    (induction l as [|x r IHl]; [intros c []|apply Cons, IHl]).
Qed.

Definition tmap (h : tree -> tree) (t : tree) : tree :=
  match t with
  | TCat l => TCat (map h l)
  | TAlt l => TAlt (map h l)
  | TOr l => TOr (map h l)
  | TFormat l => TFormat (map h l)
  | TCapture c => TCapture (h c)
  | TSubx k c => TSubx k (h c)
  | TScope c => TScope (h c)
  | TBlock i c => TBlock i (h c)
  | TStar c => TStar (h c)
  | TPlus c => TPlus (h c)
  | TAssert c => TAssert (h c)
  | TPredNot c => TPredNot (h c)
  | TPredSubx c => TPredSubx (h c)
  | TIfElse c a b => TIfElse (h c) (h a) (h b)
  | TPredAnd a b => TPredAnd (h a) (h b)
  | TPredOr a b => TPredOr (h a) (h b)
  | o => o
  end.
