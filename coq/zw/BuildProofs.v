(* Whatever the builder (Build.v = build.cc / bindings.cc) makes of a program
   is a chain in its constructed state, and so are the bodies of its blocks: the
   hypotheses of the engine theorems hold for every program, not only for the
   tested ones.  A program without format strings is built into a chain without
   format ops. *)
From Coq Require Import NArith List Bool Lia.
From Dwgrep Require Import ListAux Radix Value Tree TreeAux Engine Build Quiet EngineProofs.
Import ListNotations.

(* every `,` has at least one branch (the parser never builds an empty one) *)
Fixpoint wf_tree (t : tree) : bool :=
  match t with
  | TCat l | TOr l | TFormat l => (fix all (l : list tree) : bool := match l with [] => true | x :: r => wf_tree x && all r end) l
  | TAlt l => negb (match l with [] => true | _ => false end)
              && (fix all (l : list tree) : bool := match l with [] => true | x :: r => wf_tree x && all r end) l
  | TCapture c | TSubx _ c | TScope c | TBlock _ c | TStar c | TPlus c | TAssert c | TPredNot c | TPredSubx c => wf_tree c
  | TIfElse c a b => wf_tree c && wf_tree a && wf_tree b
  | TPredAnd a b | TPredOr a b => wf_tree a && wf_tree b
  | _ => true
  end.

(* no format string anywhere *)
Fixpoint nf_tree (t : tree) : bool :=
  match t with
  | TCat l | TOr l | TAlt l => (fix all (l : list tree) : bool := match l with [] => true | x :: r => nf_tree x && all r end) l
  | TFormat _ => false
  | TCapture c | TSubx _ c | TScope c | TBlock _ c | TStar c | TPlus c | TAssert c | TPredNot c | TPredSubx c => nf_tree c
  | TIfElse c a b => nf_tree c && nf_tree a && nf_tree b
  | TPredAnd a b | TPredOr a b => nf_tree a && nf_tree b
  | _ => true
  end.

(* both are hereditary; their nested `fix all` is forallb, up to conversion *)
Lemma wf_kids t : wf_tree t = true -> forall x, In x (kids t) -> wf_tree x = true.
Proof.
  destruct t; cbn [wf_tree kids In]; intros W x Hx;
    repeat (apply andb_prop in W; destruct W as [W ?]);
    repeat (destruct Hx as [<-|Hx]; [assumption|]); try contradiction;
    refine (proj1 (forallb_forall wf_tree l) _ x Hx); assumption.
Qed.

Lemma nf_kids t : nf_tree t = true -> forall x, In x (kids t) -> nf_tree x = true.
Proof.
  destruct t; cbn [nf_tree kids In]; intros W x Hx; try discriminate W;
    repeat (apply andb_prop in W; destruct W as [W ?]);
    repeat (destruct Hx as [<-|Hx]; [assumption|]); try contradiction;
    refine (proj1 (forallb_forall nf_tree l) _ x Hx); assumption.
Qed.

Lemma all_none_map {A} (l : list A) : all_none (map (fun _ => @None stack) l) = true.
Proof. induction l; auto. Qed.

Section B.
Variable tc : tcodes.

(* the list traversals inside `build`, by name *)
Fixpoint build_cat (l : list tree) (upm : mach) (bn : bindings) (up : uprefs) (st : bstate) :=
  match l with
  | [] => BOk (upm, bn, up, st)
  | ch :: rest =>
    match build tc ch upm bn up st with
    | BOk (m, bn', up', st') => build_cat rest m bn' up' st'
    | BErr e => BErr e
    end
  end.

Fixpoint build_branches (l : list tree) (acc : list mach) (bn : bindings) (up : uprefs) (st : bstate) :=
  match l with
  | [] => BOk (acc, bn, up, st)
  | ch :: rest =>
    match build tc ch MLeaf bn up st with
    | BOk (m, bn', up', st') => build_branches rest (acc ++ [m]) bn' up' st'
    | BErr e => BErr e
    end
  end.

(* `build_parts` matches on the head of the list for a literal; `as_str` lets the cons case be one equation
   (`build_parts_cons`) in place of one per constructor of `tree` *)
Definition as_str (t : tree) : option bytes := match t with TStr s => Some s | _ => None end.

Fixpoint build_parts (l : list tree) (acc : list part) (bn : bindings) (up : uprefs) (st : bstate) :=
  match l with
  | [] => BOk (acc, bn, up, st)
  | TStr s :: rest =>
    match build_parts rest acc bn up st with
    | BOk (acc', bn', up', st') => BOk (PLit s :: acc', bn', up', st')
    | BErr e => BErr e
    end
  | ch :: rest =>
    match build_parts rest acc bn up st with
    | BOk (acc', bn', up', st') =>
      match build tc ch MLeaf bn' up' st' with
      | BOk (m, bn'', up'', st'') => BOk (POp m None None :: acc', bn'', up'', st'')
      | BErr e => BErr e
      end
    | BErr e => BErr e
    end
  end.

Lemma build_parts_cons ch rest acc bn up st : build_parts (ch :: rest) acc bn up st =
  match build_parts rest acc bn up st with
  | BOk (acc', bn', up', st') =>
    match as_str ch with
    | Some s => BOk (PLit s :: acc', bn', up', st')
    | None =>
      match build tc ch MLeaf bn' up' st' with
      | BOk (m, bn'', up'', st'') => BOk (POp m None None :: acc', bn'', up'', st'')
      | BErr e => BErr e
      end
    end
  | BErr e => BErr e
  end.
Proof. destruct ch; exact eq_refl. Qed.

Definition build_reads (bn : bindings) :=
  fix go (l : list (name * nat)) (upm : mach) (up : uprefs) {struct l} :=
    match l with
    | [] => BOk (upm, up)
    | (n, _) :: rest =>
      match bfind tc bn n with
      | Some (BdBind id) => go rest (MRead upm id) up
      | Some (BdBuiltin _) => BErr BStuck
      | None =>
        match ufind tc up n with
        | Some (UFValue id, up') => go rest (MUpread upm id) up'
        | _ => BErr BStuck
        end
      end
    end.

Lemma build_TCat l upm bn up st : build tc (TCat l) upm bn up st = build_cat l upm bn up st.
Proof. reflexivity. Qed.

Lemma build_TAlt l upm bn up st : build tc (TAlt l) upm bn up st =
  match build_branches l [] bn up st with
  | BOk (brs, bn', up', st') => BOk (MMerge upm brs (map (fun _ => None) brs) O false, bn', up', st')
  | BErr e => BErr e
  end.
Proof. reflexivity. Qed.

Lemma build_TOr l upm bn up st : build tc (TOr l) upm bn up st =
  match build_branches l [] bn up st with
  | BOk (brs, bn', up', st') => BOk (MOr upm (mk_or_branches brs) None, bn', up', st')
  | BErr e => BErr e
  end.
Proof. reflexivity. Qed.

Lemma build_TFormat l upm bn up st : build tc (TFormat l) upm bn up st =
  match build_parts l [] bn up st with
  | BOk (parts, bn', up', st') => BOk (MFormat upm parts None 0%N, bn', up', st')
  | BErr e => BErr e
  end.
Proof. exact eq_refl. Qed.

Lemma build_TBlock id ch upm bn up st : build tc (TBlock id ch) upm bn up st =
  match build tc ch MLeaf (mkbn [[]] false) (UBlock bn up [] O) st with
  | BOk (body, _, inner_up', st') =>
    let used := match inner_up' with UBlock _ _ u _ => u | UTop => [] end in
    match build_reads bn (rev used) upm up with
    | BOk (upm', up') =>
      BOk (MLexClosure upm' (N.of_nat (List.length (blocks st'))) (List.length used), bn, up',
           mkbs (next_id st') (blocks st' ++ [body]))
    | BErr e => BErr e
    end
  | BErr e => BErr e
  end.
Proof. reflexivity. Qed.

Ltac bdestruct H E :=
  match type of H with
  | match ?X with _ => _ end = _ => destruct X as [[[[?m1 ?bn1] ?up1] ?st1]|?e] eqn:E; [|discriminate]
  end.

Definition keeps (Q : mach -> Prop) (R : bstate -> Prop) (t : tree) : Prop :=
  forall upm bn up st m bn' up' st', Q upm -> R st ->
    build tc t upm bn up st = BOk (m, bn', up', st') -> Q m /\ R st'.

Section Lists.
Variables (Q : mach -> Prop) (R : bstate -> Prop).

Lemma build_cat_keeps l : (forall x, In x l -> keeps Q R x) -> forall upm bn up st m bn' up' st',
  Q upm -> R st -> build_cat l upm bn up st = BOk (m, bn', up', st') -> Q m /\ R st'.
Proof.
  induction l as [|ch rest IH]; intros G upm bn up st m bn' up' st' Qu Qs H; cbn [build_cat] in H.
  - injection H as <- <- <- <-. auto.
  - bdestruct H E. destruct (G ch (or_introl eq_refl) _ _ _ _ _ _ _ _ Qu Qs E) as [Q1 Q2].
    exact (IH (fun x Hx => G x (or_intror Hx)) _ _ _ _ _ _ _ _ Q1 Q2 H).
Qed.

Lemma build_branches_keeps l : Q MLeaf -> (forall x, In x l -> keeps Q R x) -> forall acc bn up st brs bn' up' st',
  Forall Q acc -> R st -> build_branches l acc bn up st = BOk (brs, bn', up', st') ->
  Forall Q brs /\ R st' /\ length brs = (length acc + length l)%nat.
Proof.
  intros Ql. induction l as [|ch rest IH]; intros G acc bn up st brs bn' up' st' Qa Qs H; cbn [build_branches] in H.
  - injection H as <- <- <- <-. repeat split; auto.
  - bdestruct H E. destruct (G ch (or_introl eq_refl) _ _ _ _ _ _ _ _ Ql Qs E) as [Qm Qs1].
    assert (Forall Q (acc ++ [m1])) as Qa1 by (apply Forall_app; auto).
    destruct (IH (fun x Hx => G x (or_intror Hx)) _ _ _ _ _ _ _ _ Qa1 Qs1 H) as [A [B C]].
    repeat split; auto. rewrite app_length in C. cbn in *. lia.
Qed.

(* the reads of the captured variables in front of a block *)
Lemma build_reads_keeps bn : (forall u id, Q u -> Q (MRead u id)) -> (forall u id, Q u -> Q (MUpread u id)) ->
  forall l upm up upm' up', Q upm -> build_reads bn l upm up = BOk (upm', up') -> Q upm'.
Proof.
  intros Qr Qu. induction l as [|[nm k] rest IHl]; intros upm up upm' up' Qm H; cbn [build_reads] in H.
  - injection H as <- <-. exact Qm.
  - destruct (bfind tc bn nm) as [[b|id]|]; try discriminate.
    + eapply IHl; [|exact H]. apply Qr. exact Qm.
    + destruct (ufind tc up nm) as [[[b|id] up3]|]; try discriminate. eapply IHl; [|exact H]. apply Qu. exact Qm.
Qed.
End Lists.

Definition blocks_quiet (st : bstate) : Prop := Forall quiet (blocks st).
Definition good_build := keeps quiet blocks_quiet.
Definition good_pred (t : tree) : Prop :=
  forall bn up st pm bn' up' st', Forall quiet (blocks st) ->
    build_pred tc t bn up st = BOk (pm, bn', up', st') -> Forall quiet (blocks st').

Lemma quiet_builtin b upm : quiet upm -> quiet (build_builtin b upm).
Proof. intros Q. destruct b as [w|[] w]; [destruct w|..]; cbn; auto. Qed.

Lemma build_parts_quiet l : (forall x, In x l -> good_build x) -> forall acc bn up st parts bn' up' st',
  Forall pquiet acc -> Forall quiet (blocks st) -> build_parts l acc bn up st = BOk (parts, bn', up', st') ->
  Forall pquiet parts /\ Forall quiet (blocks st').
Proof.
  induction l as [|ch rest IH]; intros G acc bn up st parts bn' up' st' Qa Qs H.
  - injection H as <- <- <- <-. auto.
  - rewrite build_parts_cons in H. bdestruct H E.
    destruct (IH (fun x Hx => G x (or_intror Hx)) _ _ _ _ _ _ _ _ Qa Qs E) as [A B].
    destruct (as_str ch) as [s|].
    + injection H as <- <- <- <-. split; [constructor; [exact I|exact A]|exact B].
    + bdestruct H E2. injection H as <- <- <- <-.
      destruct (G ch (or_introl eq_refl) MLeaf _ _ _ _ _ _ _ I B E2) as [Qm Qs2].
      split; [constructor; [cbn [pquiet]; auto|exact A]|exact Qs2].
Qed.

Theorem build_good : forall t, wf_tree t = true -> good_build t /\ good_pred t.
Proof.
  induction t as [t IH] using tree_kids_ind. intros Hw.
  assert (forall x, In x (kids t) -> good_build x) as GB by (intros x Hx; apply IH; [|apply (wf_kids t)]; assumption).
  assert (forall x, In x (kids t) -> good_pred x) as GP by (intros x Hx; apply IH; [|apply (wf_kids t)]; assumption).
  clear IH. split.
  - intros upm bn up st m bn' up' st' Qu Qs H.
    destruct t; cbn [kids] in GB, GP; try discriminate H.
    (* TNop, TEmptyList, TConst, TStr, TDebug: one op on the upstream *)
    11, 15-17, 19: injection H as <- <- <- <-; auto.
    (* TCapture, TSubx, TStar, TPlus: one sub-tree, built on a leaf of its own *)
    4-5, 11-12: cbn [build] in H; bdestruct H E; destruct (GB t (or_introl eq_refl) MLeaf _ _ _ _ _ _ _ I Qs E) as [Q1 Q2];
      injection H as <- <- <- <-; cbn [quiet]; auto 8.
    + (* TCat *) rewrite build_TCat in H. exact (build_cat_keeps quiet blocks_quiet l GB _ _ _ _ _ _ _ _ Qu Qs H).
    + (* TAlt *) rewrite build_TAlt in H. bdestruct H E.
      destruct (build_branches_keeps quiet blocks_quiet l I GB [] _ _ _ _ _ _ _ (Forall_nil _) Qs E) as [A [B C]].
      injection H as <- <- <- <-. split; [|exact B]. apply quiet_merge. repeat split; auto.
      * apply all_none_map.
      * apply map_length.
      * intros ->. destruct l; [discriminate|cbn in C; lia].
    + (* TOr *) rewrite build_TOr in H. bdestruct H E.
      destruct (build_branches_keeps quiet blocks_quiet l I GB [] _ _ _ _ _ _ _ (Forall_nil _) Qs E) as [A [B C]].
      injection H as <- <- <- <-. split; [|exact B]. apply quiet_or. repeat split; auto.
       apply Forall_map. eapply Forall_impl; [|exact A]. auto.
    + (* TIfElse *) cbn [build] in H. bdestruct H E1. bdestruct H E2. bdestruct H E3.
      destruct (GB t1 ltac:(cbn; auto) MLeaf _ _ _ _ _ _ _ I Qs E1) as [Q1 S1].
      destruct (GB t2 ltac:(cbn; auto) MLeaf _ _ _ _ _ _ _ I S1 E2) as [Q2 S2].
      destruct (GB t3 ltac:(cbn; auto) MLeaf _ _ _ _ _ _ _ I S2 E3) as [Q3 S3].
      injection H as <- <- <- <-. cbn [quiet]; auto 6.
    + (* TScope *) cbn [build] in H. bdestruct H E.
      destruct (GB t (or_introl eq_refl) upm _ _ _ _ _ _ _ Qu Qs E) as [Q1 Q2]. injection H as <- <- <- <-. auto.
    + (* TBlock *) rewrite build_TBlock in H. bdestruct H E.
      destruct (GB t (or_introl eq_refl) MLeaf _ _ _ _ _ _ _ I Qs E) as [Q1 Q2]. cbn zeta in H.
      match type of H with match ?X with _ => _ end = _ => destruct X as [[upm' up2]|e] eqn:EG; [|discriminate] end.
      injection H as <- <- <- <-. cbn [quiet blocks]. split; [|apply Forall_app; split; [exact Q2|constructor; [exact Q1|constructor]]].
      eapply (build_reads_keeps quiet); [| |exact Qu|exact EG]; auto.
    + (* TBind *) cbn [build] in H. destruct (bbind bn n (next_id st)); [|discriminate]. injection H as <- <- <- <-. auto.
    + (* TRead *) cbn [build] in H. destruct (bfind tc bn n) as [[b|id]|].
      * injection H as <- <- <- <-. split; [apply quiet_builtin; exact Qu|exact Qs].
      * injection H as <- <- <- <-. cbn [quiet]; auto.
      * destruct (ufind tc up n) as [[[b|id] up3]|]; [| |discriminate]; injection H as <- <- <- <-.
        -- split; [apply quiet_builtin; exact Qu|exact Qs].
        -- cbn [quiet]; auto.
    + (* TAssert; `cbn` leaves a call of the other function of the mutual fixpoint unfolded *)
      cbn [build] in H. fold (build_pred tc) in H. bdestruct H E.
      pose proof (GP t (or_introl eq_refl) _ _ _ _ _ _ _ Qs E) as Q2. injection H as <- <- <- <-. cbn [quiet]; auto.
    + (* TFormat *) rewrite build_TFormat in H. bdestruct H E.
      destruct (build_parts_quiet l GB [] _ _ _ _ _ _ _ (Forall_nil _) Qs E) as [A B].
      injection H as <- <- <- <-. split; [|exact B]. apply quiet_format. auto.
    + (* TBuiltin *) destruct b as [pos k|k]; injection H as <- <- <- <-; cbn [quiet]; auto.
  - intros bn up st pm bn' up' st' Qs H.
    destruct t; cbn [kids] in GB, GP; try discriminate H.
    + (* TPredAnd *) cbn [build_pred] in H. bdestruct H E1. bdestruct H E2. injection H as <- <- <- <-.
      exact (GP t2 ltac:(cbn; auto) _ _ _ _ _ _ _ (GP t1 ltac:(cbn; auto) _ _ _ _ _ _ _ Qs E1) E2).
    + (* TPredOr *) cbn [build_pred] in H. bdestruct H E1. bdestruct H E2. injection H as <- <- <- <-.
      exact (GP t2 ltac:(cbn; auto) _ _ _ _ _ _ _ (GP t1 ltac:(cbn; auto) _ _ _ _ _ _ _ Qs E1) E2).
    + (* TPredNot *) cbn [build_pred] in H. bdestruct H E1. injection H as <- <- <- <-. exact (GP t (or_introl eq_refl) _ _ _ _ _ _ _ Qs E1).
    + (* TPredSubx *) cbn [build_pred] in H. fold (build tc) in H. bdestruct H E1. injection H as <- <- <- <-. exact (proj2 (GB t (or_introl eq_refl) MLeaf _ _ _ _ _ _ _ I Qs E1)).
    + (* TBuiltin *) destruct b as [pos k|k]; [|discriminate H]. injection H as <- <- <- <-. exact Qs.
Qed.

Theorem build_program_quiet t m blks : wf_tree t = true -> build_program tc t = BOk (m, blks) ->
  quiet m /\ Forall quiet blks.
Proof.
  intros W H. unfold build_program in H. bdestruct H E. injection H as <- <-.
  exact (proj1 (build_good t W) MLeaf _ _ (mkbs 0%N []) _ _ _ _ I (Forall_nil _) E).
Qed.

Definition nf (m : mach) : Prop := has_format m = false.
Definition nf_build := keeps nf (fun _ => True).

Lemma nf_builtin b upm : has_format upm = false -> has_format (build_builtin b upm) = false.
Proof. intros Q. destruct b as [w|[] w]; [destruct w|..]; auto. Qed.

Theorem build_nf : forall t, nf_tree t = true -> nf_build t.
Proof.
  induction t as [t IH] using tree_kids_ind. intros Hw.
  assert (forall x, In x (kids t) -> nf_build x) as GB by (intros x Hx; apply IH; [|apply (nf_kids t)]; assumption).
  clear IH. intros upm bn up st m bn' up' st' Qu _ H. split; [|exact I]. unfold nf in *.
  destruct t; cbn [kids] in GB; try discriminate H; try discriminate Hw.
  (* TNop, TEmptyList, TConst, TStr, TDebug: one op on the upstream *)
  11, 15-17, 18: injection H as <- <- <- <-; exact Qu.
  (* TCapture, TSubx, TStar, TPlus: one sub-tree, built on a leaf of its own *)
  4-5, 11-12: cbn [build] in H; bdestruct H E; destruct (GB t (or_introl eq_refl) MLeaf _ _ _ _ _ _ _ eq_refl I E) as [Q1 _];
    injection H as <- <- <- <-; cbn [has_format]; rewrite Qu, Q1; reflexivity.
  - (* TCat *) rewrite build_TCat in H. exact (proj1 (build_cat_keeps nf (fun _ => True) l GB _ _ _ _ _ _ _ _ Qu I H)).
  - (* TAlt *) rewrite build_TAlt in H. bdestruct H E.
    destruct (build_branches_keeps nf (fun _ => True) l eq_refl GB [] _ _ _ _ _ _ _ (Forall_nil _) I E) as [A _].
    injection H as <- <- <- <-. rewrite hf_merge, Qu. apply existsb_false. exact A.
  - (* TOr *) rewrite build_TOr in H. bdestruct H E.
    destruct (build_branches_keeps nf (fun _ => True) l eq_refl GB [] _ _ _ _ _ _ _ (Forall_nil _) I E) as [A _].
    injection H as <- <- <- <-. rewrite hf_or, Qu. apply existsb_false. apply Forall_map. exact A.
  - (* TIfElse *) cbn [build] in H. bdestruct H E1. bdestruct H E2. bdestruct H E3.
    destruct (GB t1 ltac:(cbn; auto) MLeaf _ _ _ _ _ _ _ eq_refl I E1) as [Q1 _].
    destruct (GB t2 ltac:(cbn; auto) MLeaf _ _ _ _ _ _ _ eq_refl I E2) as [Q2 _].
    destruct (GB t3 ltac:(cbn; auto) MLeaf _ _ _ _ _ _ _ eq_refl I E3) as [Q3 _].
    injection H as <- <- <- <-. cbn [has_format]. rewrite Qu, Q1, Q2, Q3. reflexivity.
  - (* TScope *) cbn [build] in H. bdestruct H E. destruct (GB t (or_introl eq_refl) upm _ _ _ _ _ _ _ Qu I E) as [Q1 _]. injection H as <- <- <- <-. exact Q1.
  - (* TBlock *) rewrite build_TBlock in H. bdestruct H E. cbn zeta in H.
    match type of H with match ?X with _ => _ end = _ => destruct X as [[upm' up2]|e] eqn:EG; [|discriminate] end.
    injection H as <- <- <- <-. cbn [has_format]. eapply (build_reads_keeps nf); [| |exact Qu|exact EG]; auto.
  - (* TBind *) cbn [build] in H. destruct (bbind bn n (next_id st)); [|discriminate]. injection H as <- <- <- <-. exact Qu.
  - (* TRead *) cbn [build] in H. destruct (bfind tc bn n) as [[b|id]|].
    + injection H as <- <- <- <-. apply nf_builtin; exact Qu.
    + injection H as <- <- <- <-. exact Qu.
    + destruct (ufind tc up n) as [[[b|id] up3]|]; [| |discriminate]; injection H as <- <- <- <-; [apply nf_builtin|]; exact Qu.
  - (* TAssert *) cbn [build] in H. fold (build_pred tc) in H. bdestruct H E. injection H as <- <- <- <-. exact Qu.
  - (* TBuiltin *) destruct b as [pos k|k]; injection H as <- <- <- <-; exact Qu.
Qed.

Theorem build_program_nf t m blks : nf_tree t = true -> build_program tc t = BOk (m, blks) -> has_format m = false.
Proof.
  intros W H. unfold build_program in H. bdestruct H E. injection H as <- <-.
  exact (proj1 (build_nf t W MLeaf _ _ _ _ _ _ _ eq_refl I E)).
Qed.
End B.
