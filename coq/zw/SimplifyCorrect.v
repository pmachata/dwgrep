(* tree::simplify (Simplify.v) does not change what a program means: if the
   program as written evaluates to a list of results (complete, or ended by an
   exception), the simplified program - with the simplified block bodies -
   evaluates to the same list.  Proved on the uncapped twin of the
   specification (DenU.v) and transferred to Den.den at the end. *)
From Coq Require Import NArith List Lia.
From Dwgrep Require Import Value Words Tree TreeAux Den DenU DenF DenMono DenUProofs Simplify SimplifyProofs.
Import ListNotations.

Definition dle (r1 r2 : dres) : Prop := forall evs ab, r1 = DOk evs ab -> r2 = DOk evs ab.

(* `dle` is the order of DenF.v (`ble`, see dle_ble) in which getting stuck counts as failing, too *)
Definition botD (r : dres) : Prop := forall evs ab, r <> DOk evs ab.

Lemma botD_fuel : botD DFuel.
Proof. discriminate. Qed.
Lemma botD_ok evs ab : ~ botD (DOk evs ab).
Proof. intros B. exact (B _ _ eq_refl). Qed.

Lemma dle_refl r : dle r r.
Proof. intros evs ab H; exact H. Qed.
Lemma dle_trans a b c : dle a b -> dle b c -> dle a c.
Proof. intros H1 H2 evs ab H. apply H2. apply H1. exact H. Qed.
Lemma dle_of_eq a b : a = b -> dle a b.
Proof. intros ->. apply dle_refl. Qed.
Lemma dle_bot a b : botD a -> dle a b.
Proof. intros B evs ab E. destruct (B _ _ E). Qed.
Lemma dle_fuel r : dle DFuel r.
Proof. apply dle_bot, botD_fuel. Qed.
Lemma dle_of_rle a b : rle a b -> dle a b.
Proof. intros [-> | ->]; [apply dle_fuel|apply dle_refl]. Qed.

Lemma dle_ble a b : dle a b <-> ble botD a b.
Proof.
  split.
  - intros H. destruct a as [| |evs ab]; [left|left|right; symmetry; apply H; reflexivity]; discriminate.
  - intros [B | ->]; [apply dle_bot, B|apply dle_refl].
Qed.

(* `seqU` is `seqF capU` by conversion (likewise bind_outsU and bindF capU below) *)
Lemma seqU_dle a a' b b' : dle a a' -> dle b b' -> dle (seqU a b) (seqU a' b').
Proof. rewrite !dle_ble. apply (seqF_ble botD botD_fuel botD_ok capU capU). auto. Qed.

Lemma bindU_dle r r' k k' : dle r r' -> (forall s e, dle (k s e) (k' s e)) -> dle (bind_outsU r k) (bind_outsU r' k').
Proof.
  intros Hr Hk. apply dle_ble. apply (bindF_ble botD botD_fuel botD_ok capU capU); [auto|apply dle_ble, Hr|].
  intros s e. apply dle_ble, Hk.
Qed.

Lemma case_dle (F F' : list dev -> bool -> dres) r r' :
  dle r r' -> (forall evs ab, dle (F evs ab) (F' evs ab)) ->
  dle (match r with DOk evs ab => F evs ab | DFuel => DFuel | DStuck => DStuck end)
      (match r' with DOk evs ab => F' evs ab | DFuel => DFuel | DStuck => DStuck end).
Proof.
  intros Hr H. apply dle_ble, (case_ble botD botD_ok); [apply dle_ble, Hr|]. intros. apply dle_ble, H.
Qed.

Lemma seqU_assoc a b c : seqU (seqU a b) c = seqU a (seqU b c).
Proof.
  destruct a as [| |ea [|]]; try reflexivity.
  destruct b as [| |eb [|]]; try reflexivity.
  destruct c as [| |ec abc]; try reflexivity.
  cbn. rewrite app_assoc. reflexivity.
Qed.

Lemma seqU_nil_l b : seqU (DOk [] false) b = b.
Proof. destruct b; reflexivity. Qed.

Lemma seqU_nil_r a : seqU a (DOk [] false) = a.
Proof. destruct a as [| |ea [|]]; try reflexivity. cbn. rewrite app_nil_r. reflexivity. Qed.

Lemma bindU_single s e k : bind_outsU (ok [DOut s e]) k = k s e.
Proof. apply seqU_nil_r. Qed.

Lemma bindU_ret r : bind_outsU r (fun s e => ok [DOut s e]) = r.
Proof.
  destruct r as [| |evs ab]; try reflexivity. cbn [bind_outsU].
  induction evs as [|ev evs IH]; [reflexivity|].
  destruct ev as [s e|k0]; rewrite IH; reflexivity.
Qed.

Lemma bindU_ext r k k' : (forall s e, k s e = k' s e) -> bind_outsU r k = bind_outsU r k'.
Proof.
  intros H. destruct r as [| |evs ab]; try reflexivity. cbn [bind_outsU].
  induction evs as [|ev evs IH]; [reflexivity|].
  destruct ev as [s e|k0]; rewrite IH, ?H; reflexivity.
Qed.

Lemma bindU_app ex ey aby k :
  bind_outsU (DOk (ex ++ ey) aby) k = seqU (bind_outsU (DOk ex false) k) (bind_outsU (DOk ey aby) k).
Proof.
  cbn [bind_outsU]. induction ex as [|ev ex IH]; cbn [app].
  - rewrite seqU_nil_l. reflexivity.
  - destruct ev as [s e|k0]; rewrite IH, seqU_assoc; reflexivity.
Qed.

Lemma bindU_seqU x y k : dle (bind_outsU (seqU x y) k) (seqU (bind_outsU x k) (bind_outsU y k)).
Proof.
  destruct x as [| |ex [|]]; try (apply dle_bot; discriminate).
  - (* x aborted: feeding it ends with the abort (ex = ex ++ []), which absorbs what follows *)
    cbn [seqU]. rewrite <- (app_nil_r ex), bindU_app, seqU_assoc. apply dle_refl.
  - destruct y as [| |ey aby]; try (apply dle_bot; discriminate).
    cbn [seqU]. rewrite bindU_app. apply dle_refl.
Qed.

Lemma bindU_assoc r k1 k2 :
  dle (bind_outsU (bind_outsU r k1) k2) (bind_outsU r (fun s e => bind_outsU (k1 s e) k2)).
Proof.
  destruct r as [| |evs ab]; try (apply dle_bot; discriminate).
  induction evs as [|ev evs IH]; [apply dle_refl|].
  destruct ev as [s e|k0];
    (eapply dle_trans; [apply bindU_seqU|apply seqU_dle; [apply dle_refl|exact IH]]).
Qed.

Section Steps.
  Variable P : params.
  Variable prog : tree.

  Lemma denU_mono_dle f g t env stk : f <= g -> dle (denU P prog f t env stk) (denU P prog g t env stk).
  Proof. intros L. apply dle_of_rle, denU_le, L. Qed.

  Definition catU (g : nat) : list tree -> denv -> stack -> dres :=
    fix go (l : list tree) (env : denv) (stk : stack) : dres :=
      match l with
      | [] => ok [DOut stk env]
      | c :: r => bind_outsU (denU P prog g c env stk) (fun s e => go r e s)
      end.

  Definition altU (g : nat) (env : denv) (stk : stack) : list tree -> dres :=
    fix go (l : list tree) : dres :=
      match l with
      | [] => ok []
      | c :: r => seqU (scoped env (denU P prog g c env stk)) (go r)
      end.

  Lemma denU_cat g l env stk : denU P prog (S g) (TCat l) env stk = catU g l env stk.
  Proof. reflexivity. Qed.
  Lemma denU_alt g l env stk : denU P prog (S g) (TAlt l) env stk = altU g env stk l.
  Proof. reflexivity. Qed.

  Lemma catU_mono g g' l env stk : g <= g' -> dle (catU g l env stk) (catU g' l env stk).
  Proof. intros L. apply (denU_mono_dle (S g) (S g') (TCat l)). lia. Qed.

  Lemma catU_cong g l1 l2 r :
    (forall env stk, dle (catU g l1 env stk) (catU g l2 env stk)) ->
    forall env stk, dle (catU g (r ++ l1) env stk) (catU g (r ++ l2) env stk).
  Proof.
    intros H. induction r as [|c r IH]; intros env stk; cbn [app]; [apply H|].
    cbn [catU]. apply bindU_dle; [apply dle_refl|]. intros s e. apply IH.
  Qed.

  Lemma catU_app g l1 l2 : forall env stk,
    dle (bind_outsU (catU g l1 env stk) (fun s e => catU g l2 e s)) (catU g (l1 ++ l2) env stk).
  Proof.
    induction l1 as [|c l1 IH]; intros env stk; cbn [app catU].
    - rewrite bindU_single. apply dle_refl.
    - eapply dle_trans; [apply bindU_assoc|]. apply bindU_dle; [apply dle_refl|]. intros s e. apply IH.
  Qed.

  Lemma catU_single g c env stk : catU g [c] env stk = denU P prog g c env stk.
  Proof. apply (bindU_ret (denU P prog g c env stk)). Qed.

  Lemma catU_flat_map g F l : (forall c env stk, dle (denU P prog g c env stk) (catU g (F c) env stk)) ->
    forall env stk, dle (catU g l env stk) (catU g (flat_map F l) env stk).
  Proof.
    intros H. induction l as [|c r IH]; intros env stk; [apply dle_refl|].
    cbn [flat_map]. eapply dle_trans; [|apply catU_app].
    apply bindU_dle; [apply H|]. intros s e. apply IH.
  Qed.

  (* "Promote CAT's in CAT nodes" *)
  Lemma flatten_cat_dle : forall d g l env stk, dle (catU g l env stk) (catU g (flatten_cat d l) env stk).
  Proof.
    induction d as [|d IHd]; intros g l; [intros; apply dle_refl|].
    cbn [flatten_cat]. apply catU_flat_map. intros c env stk.
    destruct c; try (rewrite catU_single; apply dle_refl).
    destruct g as [|g1]; [apply dle_fuel|]. rewrite denU_cat.
    eapply dle_trans; [apply (catU_mono g1 (S g1)); lia|]. apply IHd.
  Qed.

  Lemma scoped_seqU env a b : scoped env (seqU a b) = seqU (scoped env a) (scoped env b).
  Proof.
    destruct a as [| |ea [|]]; try reflexivity. destruct b as [| |eb abb]; try reflexivity.
    cbn. rewrite map_app. reflexivity.
  Qed.

  Lemma scoped_idem env r : scoped env (scoped env r) = scoped env r.
  Proof.
    destruct r as [| |evs ab]; try reflexivity. cbn. f_equal. rewrite map_map.
    apply map_ext. intros [s e|k]; reflexivity.
  Qed.

  Lemma scoped_altU g env stk l : scoped env (altU g env stk l) = altU g env stk l.
  Proof.
    induction l as [|c r IH]; [reflexivity|]. cbn [altU]. rewrite scoped_seqU, scoped_idem, IH. reflexivity.
  Qed.

  Lemma altU_app g env stk l1 l2 : altU g env stk (l1 ++ l2) = seqU (altU g env stk l1) (altU g env stk l2).
  Proof.
    induction l1 as [|c l1 IH]; cbn [app altU].
    - rewrite seqU_nil_l. reflexivity.
    - rewrite IH, seqU_assoc. reflexivity.
  Qed.

  Lemma altU_mono g g' env stk l : g <= g' -> dle (altU g env stk l) (altU g' env stk l).
  Proof. intros L. apply (denU_mono_dle (S g) (S g') (TAlt l)). lia. Qed.

  Lemma altU_single g env stk c : altU g env stk [c] = scoped env (denU P prog g c env stk).
  Proof. apply seqU_nil_r. Qed.

  Lemma altU_flat_map g env stk F l :
    (forall c, dle (scoped env (denU P prog g c env stk)) (altU g env stk (F c))) ->
    dle (altU g env stk l) (altU g env stk (flat_map F l)).
  Proof.
    intros H. induction l as [|c r IH]; [apply dle_refl|].
    cbn [flat_map altU]. rewrite altU_app. apply seqU_dle; [apply H|exact IH].
  Qed.

  (* "... and ALT's in ALT nodes" *)
  Lemma flatten_alt_dle : forall d g env stk l, dle (altU g env stk l) (altU g env stk (flatten_alt d l)).
  Proof.
    induction d as [|d IHd]; intros g env stk l; [apply dle_refl|].
    cbn [flatten_alt]. apply altU_flat_map.
    destruct c; try (rewrite altU_single; apply dle_refl).
    destruct g as [|g1]; [apply dle_fuel|]. rewrite denU_alt, scoped_altU.
    eapply dle_trans; [apply (altU_mono g1 (S g1)); lia|]. apply IHd.
  Qed.

  (* "Promote CAT's only child" *)
  Lemma cat_single_dle g c env stk : dle (denU P prog g (TCat [c]) env stk) (denU P prog g c env stk).
  Proof.
    destruct g as [|g1]; [apply dle_fuel|].
    rewrite denU_cat, catU_single. apply denU_mono_dle. lia.
  Qed.

  (* the same step on the specification evaluator itself, where the cap can make
     either side give up: on the twin the two sides are equal *)
  Theorem cat_single f c env stk :
    same_or_fuel (den P prog (S f) (TCat [c]) env stk) (den P prog f c env stk).
  Proof.
    eapply sof_below; [apply den_le_denU..|]. right; right.
    rewrite denU_cat. apply catU_single.
  Qed.

  (* "Change (FORMAT (STR)) to (STR)" *)
  Lemma format_single_str_dle g s env stk : dle (denU P prog g (TFormat [TStr s]) env stk) (denU P prog g (TStr s) env stk).
  Proof.
    destruct g as [|g1]; [apply dle_fuel|].
    apply dle_of_eq. cbn. rewrite app_nil_r. reflexivity.
  Qed.

  (* "Drop NOP's in CAT nodes" *)
  Lemma catU_nop g l env stk : catU (S g) (TNop :: l) env stk = catU (S g) l env stk.
  Proof. apply (bindU_single stk env). Qed.

  Lemma catU_drop_nops g l : forall env stk,
    catU (S g) l env stk = catU (S g) (filter (fun c => negb (is_nop c)) l) env stk.
  Proof.
    induction l as [|c r IH]; intros env stk; [reflexivity|].
    cbn [filter].
    destruct (is_nop c) eqn:N; cbn [negb].
    - destruct c; try discriminate N. rewrite catU_nop. apply IH.
    - apply bindU_ext. intros s e. apply IH.
  Qed.

  Lemma drop_nops_dle g l : forall env stk,
    dle (catU g l env stk) (catU g (filter (fun c => negb (is_nop c)) l) env stk).
  Proof.
    intros env stk. destruct g as [|g]; [|apply dle_of_eq, catU_drop_nops].
    destruct l; [apply dle_refl|apply dle_fuel].
  Qed.

  Theorem cat_drop_nop f l1 l2 env stk :
    same_or_fuel (den P prog (S (S f)) (TCat (l1 ++ TNop :: l2)) env stk)
                 (den P prog (S (S f)) (TCat (l1 ++ l2)) env stk).
  Proof.
    eapply sof_below; [apply den_le_denU..|]. right; right.
    rewrite !denU_cat, (catU_drop_nops f (l1 ++ l2)), (catU_drop_nops f (l1 ++ _ :: l2)), !filter_app. reflexivity.
  Qed.

  Theorem node_fix_dle : forall n g t env stk, dle (denU P prog g t env stk) (denU P prog g (node_fix n t) env stk).
  Proof.
    intros n g t env stk. revert g env stk.
    apply (node_fix_rel (fun t t' => forall g env stk, dle (denU P prog g t env stk) (denU P prog g t' env stk))).
    - intros; apply dle_refl.
    - intros a b c H1 H2 g env stk. eapply dle_trans; [apply H1|apply H2].
    - intros d l [|g] env stk; [apply dle_fuel|]. rewrite !denU_cat. apply flatten_cat_dle.
    - intros d l [|g] env stk; [apply dle_fuel|]. rewrite !denU_alt. apply flatten_alt_dle.
    - intros; apply cat_single_dle.
    - intros; apply format_single_str_dle.
    - intros l [|g] env stk; [apply dle_fuel|]. rewrite !denU_cat. apply drop_nops_dle.
  Qed.
End Steps.

Definition firstb (id : N) : list tree -> option tree :=
  fix first (l : list tree) : option tree :=
    match l with
    | [] => None
    | x :: r => match find_block x id with Some b => Some b | None => first r end
    end.

Lemma find_block_cat l id : find_block (TCat l) id = firstb id l.
Proof. reflexivity. Qed.
Lemma find_block_alt l id : find_block (TAlt l) id = firstb id l.
Proof. reflexivity. Qed.

Lemma firstb_app id l1 l2 :
  firstb id (l1 ++ l2) = match firstb id l1 with Some b => Some b | None => firstb id l2 end.
Proof.
  induction l1 as [|x l1 IH]; [reflexivity|]. cbn [app firstb]. destruct (find_block x id); [reflexivity|exact IH].
Qed.

Lemma firstb_flat_map id (F : tree -> list tree) l :
  (forall c, firstb id (F c) = find_block c id) -> firstb id (flat_map F l) = firstb id l.
Proof.
  intros H. induction l as [|c r IH]; [reflexivity|].
  cbn [flat_map firstb]. rewrite firstb_app, H, IH. reflexivity.
Qed.

Lemma firstb_single id c : firstb id [c] = find_block c id.
Proof. cbn [firstb]. destruct (find_block c id); reflexivity. Qed.

Lemma firstb_flatten_cat id : forall d l, firstb id (flatten_cat d l) = firstb id l.
Proof.
  induction d as [|d IH]; intros l; [reflexivity|]. cbn [flatten_cat].
  apply firstb_flat_map. destruct c; try apply firstb_single.
  rewrite IH. reflexivity.
Qed.

Lemma firstb_flatten_alt id : forall d l, firstb id (flatten_alt d l) = firstb id l.
Proof.
  induction d as [|d IH]; intros l; [reflexivity|]. cbn [flatten_alt].
  apply firstb_flat_map. destruct c; try apply firstb_single.
  rewrite IH. reflexivity.
Qed.

Lemma firstb_drop_nops id l : firstb id (filter (fun c => negb (is_nop c)) l) = firstb id l.
Proof.
  induction l as [|c r IH]; [reflexivity|]. cbn [filter].
  destruct (is_nop c) eqn:N; cbn [negb].
  - destruct c; try discriminate N. exact IH.
  - cbn [firstb]. rewrite IH. reflexivity.
Qed.

Lemma find_block_node_fix id n t : find_block (node_fix n t) id = find_block t id.
Proof.
  apply (node_fix_rel (fun t t' => find_block t' id = find_block t id)); intros; try reflexivity.
  - congruence.
  - rewrite !find_block_cat. apply firstb_flatten_cat.
  - rewrite !find_block_alt. apply firstb_flatten_alt.
  - rewrite find_block_cat, firstb_single. reflexivity.
  - apply firstb_drop_nops.
Qed.

Lemma find_block_kids t id :
  find_block t id = match t with
                    | TBlock i b => if N.eqb i id then Some b else find_block b id
                    | _ => firstb id (kids t)
                    end.
Proof. destruct t; cbn [kids find_block]; rewrite ?firstb_single; reflexivity. Qed.

Lemma firstb_map h id l :
  (forall c, In c l -> find_block (h c) id = option_map h (find_block c id)) ->
  firstb id (map h l) = option_map h (firstb id l).
Proof.
  induction l as [|c r IH]; intros H; [reflexivity|]. cbn [map firstb].
  rewrite (H c (or_introl eq_refl)). destruct (find_block c id); [reflexivity|].
  apply IH. intros c' Hc'. apply H. right. exact Hc'.
Qed.

Lemma find_block_tmap h id t :
  (forall c, In c (kids t) -> find_block (h c) id = option_map h (find_block c id)) ->
  find_block (tmap h t) id = option_map h (find_block t id).
Proof.
  intros H. pose proof (firstb_map h id (kids t) H) as E.
  rewrite !find_block_kids. destruct t; try exact E.
  cbn [tmap]. destruct (N.eqb id0 id); [reflexivity|]. apply H. left. reflexivity.
Qed.

(* `tmap simplify t` is the `t'` of `simplify` (Simplify.v), S (S (S (depth t'))) the fuel it gives `node_fix` there *)
Lemma simplify_eq t : simplify t = node_fix (S (S (S (depth (tmap simplify t))))) (tmap simplify t).
Proof. destruct t; reflexivity. Qed.

Lemma find_block_simplify t id : find_block (simplify t) id = option_map simplify (find_block t id).
Proof.
  induction t as [t IH] using tree_kids_ind.
  rewrite simplify_eq, find_block_node_fix. apply find_block_tmap. exact IH.
Qed.

Lemma node_fix_other n t :
  match t with TCat _ | TAlt _ | TFormat _ => False | _ => True end -> node_fix n t = t.
Proof. destruct n; [reflexivity|]. destruct t; intros H; try reflexivity; contradiction. Qed.

Definition pdle (x y : (pres * list soft) + dres) : Prop :=
  (forall v, x = inl v -> y = inl v) /\ (forall evs ab, x = inr (DOk evs ab) -> y = inr (DOk evs ab)).

Lemma bindU_DOk_inv r k evs ab : bind_outsU r k = DOk evs ab -> exists evs' ab', r = DOk evs' ab'.
Proof. destruct r as [| |e a]; intros H; try discriminate. eauto. Qed.

Lemma pdle_bot r y : botD r -> pdle (inr r) y.
Proof. intros B. split; [discriminate|]. intros evs ab E. inversion E as [E']. destruct (B _ _ E'). Qed.

Lemma pdle_pble x y : pdle x y <-> pble botD x y.
Proof.
  split.
  - intros [Hl Hr]. destruct x as [v|[| |evs ab]]; [right; symmetry; apply Hl; reflexivity| | |right; symmetry; apply Hr; reflexivity];
      left; eexists; (split; [reflexivity|discriminate]).
  - intros [(r & -> & B) | ->]; [apply pdle_bot, B|split; auto].
Qed.

(* one level of the evaluator commutes with a rewrite h of the immediate subtrees:
   running the subtrees' images is running the image.  h must keep literals, the
   only subtrees the evaluator looks into (the splices of a format string). *)
Section Tmap.
  Variable h : tree -> tree.
  Hypothesis h_str : forall s, h (TStr s) = TStr s.
  Variable P : params.
  Variable call : denv -> N -> list value -> stack -> dres.
  Variable rec : tree -> denv -> stack -> dres.
  Variable prec : tree -> denv -> stack -> (pres * list soft) + dres.
  Variable g : nat.
  (* ... and a part that becomes a literal must mean what the literal does *)
  Hypothesis rec_str : forall s env stk, dle (rec (TStr s) env stk) (ok [DOut (VStr s 0 :: stk) env]).

  (* a splice that is not a literal but has become one *)
  Lemma splice_lit t suffix env stk :
    let k (s2 : stack) (e2 : denv) := match s2 with
                                      | v :: s2' => ok [DOut (VStr (show (p_tc P) v ++ suffix) 0 :: s2') e2]
                                      | [] => abort
                                      end in
    dle (bind_outsU (rec t env stk) k)
        (match t with
         | TStr lit => ok [DOut (VStr (lit ++ suffix) 0 :: stk) env]
         | _ => bind_outsU (rec t env stk) k
         end).
  Proof.
    destruct t; try apply dle_refl.
    eapply dle_trans; [apply bindU_dle; [apply rec_str|intros; apply dle_refl]|].
    apply dle_refl.
  Qed.

  Lemma denH_tmap t env stk :
    dle (denH seqU bind_outsU closure_loopU P call (fun c => rec (h c)) (fun c => prec (h c)) g t env stk)
        (denH seqU bind_outsU closure_loopU P call rec prec g (tmap h t) env stk).
  Proof.
    destruct t; cbn [tmap denH]; try apply dle_refl.
    - (* TCat *)
      revert env stk. induction l as [|c r IHl]; intros env stk; [apply dle_refl|].
       apply bindU_dle; [apply dle_refl|]. intros s e. apply IHl.
    - (* TAlt *)
      induction l as [|c r IHl]; [apply dle_refl|].
       apply seqU_dle; [apply dle_refl|apply IHl].
    - (* TOr *)
      induction l as [|c r IHl]; [apply dle_refl|]. cbn [map].
      destruct (scoped env (rec (h c) env stk)) as [| |evs ab]; try apply dle_refl.
      destruct (outs_of evs); [|apply dle_refl]. apply seqU_dle; [apply dle_refl|apply IHl].
    - (* TFormat *)
      apply case_dle; [|intros; apply dle_refl].
      induction l as [|part rest IHl]; [apply dle_refl|].
      apply bindU_dle; [apply IHl|]. intros s1 e1.
      destruct s1 as [|[z d p0|suffix p0|l0 p0|blk cenv p0] s1']; try apply dle_refl.
      destruct part; try apply splice_lit. rewrite h_str. apply dle_refl.
  Qed.

  Lemma pevalF_tmap p env stk :
    pevalF (fun c => rec (h c)) (fun c => prec (h c)) p env stk = pevalF rec prec (tmap h p) env stk.
  Proof. destruct p; reflexivity. Qed.
End Tmap.

Section Main.
  Variable P : params.
  Variable prog : tree.
  Let progS := simplify prog.

  Definition SimpLe (f : nat) : Prop :=
    (forall t env stk, dle (denU P prog f t env stk) (denU P progS f (simplify t) env stk)) /\
    (forall p env stk, pdle (pevalU P prog f p env stk) (pevalU P progS f (simplify p) env stk)).

  Lemma denU_str f s env stk : dle (denU P progS f (TStr s) env stk) (ok [DOut (VStr s 0 :: stk) env]).
  Proof. destruct f; [apply dle_fuel|apply dle_refl]. Qed.

  Lemma simp_shallow_step f : SimpLe f ->
    (forall t env stk, dle (denU P prog (S f) t env stk) (denU P progS (S f) (tmap simplify t) env stk)) /\
    (forall p env stk, pdle (pevalU P prog (S f) p env stk) (pevalU P progS (S f) (tmap simplify p) env stk)).
  Proof.
    intros [IHd IHp].
    assert (forall t env stk, ble botD (denU P prog f t env stk) (denU P progS f (simplify t) env stk)) as Hd
      by (intros; apply dle_ble, IHd).
    assert (forall p env stk, pble botD (pevalU P prog f p env stk) (pevalU P progS f (simplify p) env stk)) as Hp
      by (intros; apply pdle_pble, IHp).
    split; intros.
    - (* by way of the body at t itself, calling the evaluator of the simplified program on simplified children:
         the body is monotone in what it calls (`denF_ble`), and calling on simplified children is the body at
         `tmap simplify t` (`denH_tmap`) *)
      rewrite !denU_S. eapply dle_trans; [|apply denH_tmap; [reflexivity|apply denU_str]].
      apply dle_ble. apply (denF_ble botD botD_fuel botD_ok capU capU); auto.
      (* a closure: its body in the simplified program is the simplified body *)
      intros e blk cenv rest. unfold callF, progS. rewrite find_block_simplify.
      destruct (find_block prog blk); [apply (scoped_ble botD botD_ok), Hd|apply ble_refl].
    - rewrite !pevalU_S, <- pevalF_tmap. apply pdle_pble. apply (pevalF_ble botD botD_ok); auto.
  Qed.

  Lemma simp_step f : SimpLe f -> SimpLe (S f).
  Proof.
    intros IHf. destruct (simp_shallow_step f IHf) as [Sd Sp]. split.
    - intros t env stk. rewrite simplify_eq.
      eapply dle_trans; [apply Sd|]. apply node_fix_dle.
    - intros p env stk. rewrite simplify_eq.
      (* node_fix rewrites no predicate node; on what it does rewrite, peval is stuck *)
      destruct p; try (rewrite node_fix_other by exact I; apply Sp); apply pdle_bot; discriminate.
  Qed.

  Theorem simp_all : forall f, SimpLe f.
  Proof.
    induction f as [|f IH]; [|apply simp_step; exact IH].
    split; intros; [apply dle_fuel|apply pdle_bot, botD_fuel].
  Qed.

  Theorem simplify_preserves f1 f2 t env stk evs ab :
    den P prog f1 t env stk = DOk evs ab ->
    den P progS f2 (simplify t) env stk <> DFuel ->
    den P progS f2 (simplify t) env stk = DOk evs ab.
  Proof.
    intros H1 H2.
    (* on the twin, with the larger of the two fuels, the simplified program gives evs *)
    assert (denU P progS (Nat.max f1 f2) (simplify t) env stk = DOk evs ab) as M.
    { apply (denU_mono_dle P progS f1); [lia|]. apply simp_all.
      apply (dle_of_rle _ _ (den_le_denU P prog f1 t env stk)). exact H1. }
    (* and so does den with f2, which did not give up *)
    destruct (den_le_denU P progS f2 (simplify t) env stk) as [E|E]; [contradiction|].
    rewrite E, <- M. symmetry. apply denU_mono; [lia|]. rewrite <- E. exact H2.
  Qed.
End Main.
