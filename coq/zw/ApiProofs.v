(* Executions of one query never influence one another: what result set r is
   told in any history equals what it is told when the operations on the other
   result sets are removed. *)
From Coq Require Import ZArith List.
From Dwgrep Require Import Value Words Engine Api.
Import ListNotations.

Section Proofs.
  Variable P : params.
  Variable blks : list mach.
  Variable prog : mach.
  Variable fuel : nat.

  Notation run_hist := (run_hist P blks prog fuel).

  Lemma tget_tdel_other t r k : r <> k -> tget (tdel t k) r = tget t r.
  Proof.
    intros N. induction t as [|[j s] t IH]; cbn; auto.
    destruct (Nat.eqb_spec j k).
    - subst. destruct (Nat.eqb_spec k r); [congruence|]. auto.
    - cbn. destruct (Nat.eqb_spec j r); auto.
  Qed.

  Lemma tget_tdel_same t r : tget (tdel t r) r = None.
  Proof.
    induction t as [|[j s] t IH]; cbn; auto.
    destruct (Nat.eqb_spec j r); auto. cbn. destruct (Nat.eqb_spec j r); [congruence|auto].
  Qed.

  Lemma tget_tset_other t r k s : r <> k -> tget (tset t k s) r = tget t r.
  Proof.
    intros N. cbn. destruct (Nat.eqb_spec k r); [congruence|]. apply tget_tdel_other; auto.
  Qed.

  Lemma tget_tset_same t r s : tget (tset t r s) r = Some s.
  Proof. cbn. rewrite Nat.eqb_refl. auto. Qed.

  Inductive lop := LExec (input : stack) | LPull | LDestroy.

  Definition view1 (r : nat) (o : op) : option lop :=
    match o with
    | Execute k i => if Nat.eqb k r then Some (LExec i) else None
    | Pull k => if Nat.eqb k r then Some LPull else None
    | Destroy k => if Nat.eqb k r then Some LDestroy else None
    end.

  Fixpoint view (r : nat) (h : list op) : list lop :=
    match h with
    | [] => []
    | o :: h' => match view1 r o with Some l => l :: view r h' | None => view r h' end
    end.

  (* one result set on its own: no table, no identifiers *)
  Fixpoint run_local (st : option rstate) (l : list lop) : list answer :=
    match l with
    | [] => []
    | LExec i :: l' => run_local (Some (prog, LOrigin (Some i), [])) l'
    | LDestroy :: l' => run_local None l'
    | LPull :: l' =>
      match st with
      | None => ANoSuch :: run_local None l'
      | Some s => let '(a, st') := pull1 P blks fuel s in a :: run_local st' l'
      end
    end.

  Lemma answers_for_cons r k a l :
    answers_for r ((k, a) :: l) = if Nat.eqb k r then a :: answers_for r l else answers_for r l.
  Proof. unfold answers_for. cbn [filter fst]. destruct (Nat.eqb k r); reflexivity. Qed.

  (* by cases on the operation and on whether it is one on r: r's entry of the table
     moves as run_local's state does, and r is told what run_local tells *)
  Theorem history_is_local r : forall h t,
    answers_for r (run_hist t h) = run_local (tget t r) (view r h).
  Proof.
    induction h as [|o h IH]; intros t; cbn [run_hist view]; auto.
    destruct o as [k i|k|k]; cbn [view1 step]; destruct (Nat.eqb_spec k r) as [->|N].
    - rewrite IH, tget_tset_same. reflexivity.
    - rewrite IH, tget_tset_other by auto. reflexivity.
    - cbn [run_local]. destruct (tget t r) as [st|] eqn:G.
      + destruct (pull1 P blks fuel st) as [a [st'|]];
          rewrite answers_for_cons, Nat.eqb_refl, IH, ?tget_tset_same, ?tget_tdel_same; reflexivity.
      + rewrite answers_for_cons, Nat.eqb_refl, IH, G. reflexivity.
    - apply Nat.eqb_neq in N as N'.
      destruct (tget t k) as [st|]; [destruct (pull1 P blks fuel st) as [a [st'|]]|];
        rewrite answers_for_cons, N', IH, ?tget_tset_other, ?tget_tdel_other by auto; reflexivity.
    - rewrite IH, tget_tdel_same. reflexivity.
    - rewrite IH, tget_tdel_other by auto. reflexivity.
  Qed.

  Lemma view_filter r h : view r (filter (concerns r) h) = view r h.
  Proof.
    induction h as [|o h IH]; [reflexivity|]. cbn [filter view].
    destruct o as [k i|k|k]; cbn [concerns view1]; destruct (Nat.eqb k r) eqn:E;
      cbn [view view1]; rewrite ?E, IH; reflexivity.
  Qed.

  Theorem history_projection r : forall h t t',
    tget t r = tget t' r ->
    answers_for r (run_hist t h) = answers_for r (run_hist t' (filter (concerns r) h)).
  Proof. intros h t t' E. rewrite !history_is_local, view_filter, E. reflexivity. Qed.

  Corollary same_view_same_answers r1 r2 h1 h2 t1 t2 :
    tget t1 r1 = tget t2 r2 -> view r1 h1 = view r2 h2 ->
    answers_for r1 (run_hist t1 h1) = answers_for r2 (run_hist t2 h2).
  Proof. intros E V. rewrite !history_is_local, E, V. reflexivity. Qed.

  Definition fresh_run (input : stack) (n : nat) : list answer :=
    run_local None (LExec input :: repeat LPull n).

  Corollary as_a_fresh_run r h t input n :
    view r h = LExec input :: repeat LPull n ->
    answers_for r (run_hist t h) = fresh_run input n.
  Proof. intros V. rewrite history_is_local, V. reflexivity. Qed.

  Lemma run_local_app l1 l2 : forall st, exists st', run_local st (l1 ++ l2) = run_local st l1 ++ run_local st' l2.
  Proof.
    induction l1 as [|o l1 IH]; intros st; cbn [app run_local]; [exists st; reflexivity|].
    destruct o as [i| |]; [apply IH| |apply IH].
    destruct st as [s|].
    - destruct (pull1 P blks fuel s) as [a st1]. destruct (IH st1) as [st' E]. exists st'. rewrite E. reflexivity.
    - destruct (IH None) as [st' E]. exists st'. rewrite E. reflexivity.
  Qed.

  Corollary reexecute_starts_over r h t l input n :
    view r h = l ++ LExec input :: repeat LPull n ->
    exists before, answers_for r (run_hist t h) = before ++ fresh_run input n.
  Proof.
    intros V. rewrite history_is_local, V. destruct (run_local_app l (LExec input :: repeat LPull n) (tget t r)) as [st' E].
    (* `run_local` at an `LExec` forgets the state it is given: whatever `l` left, the rest is the fresh run *)
    eexists. exact E.
  Qed.
End Proofs.
