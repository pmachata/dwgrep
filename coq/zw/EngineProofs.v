(* The engine model forgets: once an op chain has reported that it is exhausted,
   every op of it is back in the state it was constructed in -- so the next
   input stack is processed exactly like the first one.  This is the engine
   half of C01 ("no construct remembers, drops or re-orders work because of
   stacks it saw earlier"), for every op of Engine.v.  `next_at` restates
   `next (S f)` as one rule per returning path of the code (`next_S`); the
   invariant (`main`), the constancy of the constructed chain (`next_same`,
   `mainR`) and the theorems of StarvedProofs, NeutralProofs and ClosureEngine
   go by cases over these rules. *)
From Coq Require Import NArith List Bool Arith Lia.
From Dwgrep Require Import ListAux Radix Value Words Engine Quiet.
Import ListNotations.

(* a `fix all` nested in a definition over a list is Forall; F is its cons case, P what it says of the head *)
Lemma fix_all_Forall {A} (F : A -> Prop -> Prop) (P : A -> Prop) :
  (forall x R, F x R <-> P x /\ R) -> forall l,
  (fix all (l : list A) : Prop := match l with [] => True | x :: t => F x (all t) end) l <-> Forall P l.
Proof.
  intros HF. induction l as [|x t IH]; [split; [constructor|exact (fun _ => I)]|].
  rewrite HF, IH. split; [intros [A1 A2]; constructor; assumption|intros A1; inversion A1; auto].
Qed.

(* the same for a `fix all` that counts positions from k: P is asked of the element at position k + j *)
Lemma fix_all_nth {A} (F : nat -> A -> Prop -> Prop) (P : nat -> A -> Prop) :
  (forall j x R, F j x R <-> P j x /\ R) -> forall l k,
  (fix all (l : list A) (j : nat) : Prop := match l with [] => True | x :: t => F j x (all t (S j)) end) l k
  <-> (forall j x, nth_error l j = Some x -> P (k + j) x).
Proof.
  intros HF. induction l as [|x t IH]; intros k; [split; [intros _ [|j] y E; discriminate E|exact (fun _ => I)]|].
  rewrite HF, IH. split.
  - intros [A1 A2] [|j] y E; cbn in E; [inversion E; subst; rewrite Nat.add_0_r; exact A1|].
    rewrite Nat.add_succ_r. exact (A2 j y E).
  - intros A1. split; [rewrite <- (Nat.add_0_r k); exact (A1 0 x eq_refl)|].
    intros j y E. specialize (A1 (S j) y E). rewrite Nat.add_succ_r in A1. exact A1.
Qed.

Lemma fix_allb {A} (F : A -> bool -> bool) (p : A -> bool) :
  (forall x b, F x b = p x && b) -> forall l,
  (fix all (l : list A) : bool := match l with [] => true | x :: t => F x (all t) end) l = forallb p l.
Proof. intros HF. induction l as [|x t IH]; [reflexivity|]. rewrite HF, IH. reflexivity. Qed.

Lemma fix_anyb {A} (F : A -> bool -> bool) (p : A -> bool) :
  (forall x b, F x b = p x || b) -> forall l,
  (fix any (l : list A) : bool := match l with [] => false | x :: t => F x (any t) end) l = existsb p l.
Proof. intros HF. induction l as [|x t IH]; [reflexivity|]. rewrite HF, IH. reflexivity. Qed.

Lemma mach_ind' (P : mach -> Prop)
  (Hleaf : P MLeaf)
  (Hnop : forall up, P up -> P (MNop up))
  (Hconst : forall up v, P up -> P (MConst up v))
  (Hassert : forall up p, P up -> P (MAssert up p))
  (Hformat : forall up parts oslot pos, P up ->
     Forall (fun p => match p with PLit _ => True | POp inner _ _ => P inner end) parts -> P (MFormat up parts oslot pos))
  (Hmerge : forall up brs file idx done, P up -> Forall P brs -> P (MMerge up brs file idx done))
  (Hor : forall up brs cur, P up -> Forall (fun b => P (fst b)) brs -> P (MOr up brs cur))
  (Hcapture : forall up inner, P up -> P inner -> P (MCapture up inner))
  (Hclosure : forall up inner plus slot seen stks drained, P up -> P inner -> P (MClosure up inner plus slot seen stks drained))
  (Hsubx : forall up inner keep saved slot, P up -> P inner -> P (MSubx up inner keep saved slot))
  (Hbind : forall up id, P up -> P (MBind up id))
  (Hread : forall up id, P up -> P (MRead up id))
  (Hupread : forall up id, P up -> P (MUpread up id))
  (Hlexclosure : forall up blk n, P up -> P (MLexClosure up blk n))
  (Hifelse : forall up cnd thn els active, P up -> P cnd -> P thn -> P els -> P (MIfElse up cnd thn els active))
  (Hword : forall up w pending, P up -> P (MWord up w pending))
  (Happly : forall up skip sub, P up -> P (MApply up skip sub))
  (Hdebug : forall up, P up -> P (MDebug up)) :
  forall m, P m.
Proof.
  fix IH 1.
  destruct m; [apply Hleaf|apply Hnop|apply Hconst|apply Hassert|apply Hformat|apply Hmerge|apply Hor|apply Hcapture|apply Hclosure
              |apply Hsubx|apply Hbind|apply Hread|apply Hupread|apply Hlexclosure|apply Hifelse|apply Hword|apply Happly|apply Hdebug];
    try apply IH.
  - induction parts as [|[s|inner slot cur] t IHt]; constructor; [exact I|exact IHt|apply IH|exact IHt].
  - induction brs as [|x t IHt]; constructor; [apply IH|exact IHt].
  - induction brs as [|[x sl] t IHt]; constructor; [apply IH|exact IHt].
Qed.

Lemma add_errs_inv e0 X r m' c' s' e :
  add_errs e0 X = Ret (r, m', c', s', e) -> exists e1, X = Ret (r, m', c', s', e1) /\ e = e0 ++ e1.
Proof. destruct X as [| | |[[[[r0 m0] c0] s0] e1]]; cbn; try discriminate. intros H. inversion H. eauto. Qed.

(* peel one `match` / `if` / `add_errs` off an equation [... = Ret _]: for `next_S`, `snext_S`, and for lemmas about the
   loops `peval`, `drain`, `or_try` that the rules leave as they are *)
Ltac peel H :=
  match type of H with
  | (if negb ?X then _ else _) = Ret _ => destruct X; cbn [negb] in H
  | add_errs _ _ = Ret _ => apply add_errs_inv in H; destruct H as (? & H & ->)
  | match ?X with _ => _ end = Ret _ =>
    lazymatch type of X with
    | res (_ * _ * _ * _ * _) => destruct X as [| | |[[[[? ?] ?] ?] ?]] eqn:?; try discriminate H
    | res (_ * _ * _ * _) => destruct X as [| | |[[[? ?] ?] ?]] eqn:?; try discriminate H
    | res (_ * _ * _) => destruct X as [| | |[[? ?] ?]] eqn:?; try discriminate H
    | _ => destruct X eqn:?; try discriminate H
    end
  end.

Section Proofs.
Variable P : params.
Variable blks : list mach.
Notation next := (next P blks).
Notation snext := (snext P blks).

(* the state a chain is constructed in *)
Fixpoint quiet (m : mach) : Prop :=
  match m with
  | MLeaf => True
  | MNop up | MDebug up | MConst up _ | MBind up _ | MRead up _ | MUpread up _ | MLexClosure up _ _ => quiet up
  | MAssert up p => quiet up
  | MMerge up brs file idx done =>
    (* `brs <> []` and the lengths are for `quiet_inv`: `inv` has `idx < length brs`, and `length file = length brs`
       so that the tine handed to the branch has `idx < length file` (`cinv`) *)
    quiet up /\ (fix all (l : list mach) : Prop := match l with [] => True | x :: t => quiet x /\ all t end) brs
    /\ all_none file = true /\ idx = O /\ done = false /\ length file = length brs /\ brs <> []
  | MOr up brs cur =>
    quiet up /\ (fix all (l : list (mach * option stack)) : Prop :=
                   match l with [] => True | (x, sl) :: t => quiet x /\ sl = None /\ all t end) brs /\ cur = None
  | MCapture up inner => quiet up /\ quiet inner
  | MSubx up inner keep saved slot => quiet up /\ quiet inner /\ saved = None /\ slot = None
  | MIfElse up cnd thn els active => quiet up /\ quiet cnd /\ quiet thn /\ quiet els /\ active = None
  | MWord up w pending => quiet up /\ pending = []
  | MClosure up inner plus slot seen stks drained =>
    quiet up /\ quiet inner /\ slot = None /\ seen = [] /\ stks = [] /\ drained = true
  | MApply up skip sub => quiet up /\ sub = None
  | MFormat up parts oslot pos =>
    (* the position counter is reset when the next stack arrives, not at exhaustion: any value *)
    quiet up /\ (fix all (l : list part) : Prop :=
                   match l with
                   | [] => True
                   | PLit _ :: t => all t
                   | POp inner slot cur :: t => quiet inner /\ slot = None /\ cur = None /\ all t
                   end) parts /\ oslot = None
  end.

Definition pquiet (p : part) : Prop :=
  match p with PLit _ => True | POp inner slot cur => quiet inner /\ slot = None /\ cur = None end.

Lemma quiet_format up parts oslot pos :
  quiet (MFormat up parts oslot pos) <-> quiet up /\ Forall pquiet parts /\ oslot = None.
Proof.
  rewrite <- (fix_all_Forall (fun (p : part) (R : Prop) => match p with PLit _ => R | POp inner slot cur => quiet inner /\ slot = None /\ cur = None /\ R end) pquiet);
    [reflexivity|]. intros [str|inner slot cur] R; cbn; tauto.
Qed.

Definition all_quiet (l : list mach) : Prop := Forall quiet l.
Definition all_quiet_or (l : list (mach * option stack)) : Prop := Forall (fun b => quiet (fst b) /\ snd b = None) l.

Lemma quiet_merge up brs file idx done :
  quiet (MMerge up brs file idx done) <->
  quiet up /\ all_quiet brs /\ all_none file = true /\ idx = O /\ done = false /\ length file = length brs /\ brs <> [].
Proof. unfold all_quiet. rewrite <- (fix_all_Forall (fun x R => quiet x /\ R) quiet); [reflexivity|tauto]. Qed.

Lemma or_fix_quiet brs :
  (fix all (l : list (mach * option stack)) : Prop :=
     match l with [] => True | (x, sl) :: t => quiet x /\ sl = None /\ all t end) brs <-> all_quiet_or brs.
Proof. apply (fix_all_Forall (fun (b : mach * option stack) (R : Prop) => let (x, sl) := b in quiet x /\ sl = None /\ R)). intros [x sl] R; cbn; tauto. Qed.

Lemma quiet_or up brs cur : quiet (MOr up brs cur) <-> quiet up /\ all_quiet_or brs /\ cur = None.
Proof. cbn [quiet]. rewrite or_fix_quiet. reflexivity. Qed.

(* the states a chain can be in while it works.  Sub-chains that are never stepped in place, a copy being
   run each time -- `inner` of `MCapture`, `cnd`/`thn`/`els` of `MIfElse` -- stay pristine; the predicate of
   an `MAssert` is not looked at, here or in `quiet`: `peval` drops the state of what it ran *)
Fixpoint inv (m : mach) : Prop :=
  match m with
  | MLeaf => True
  | MNop up | MDebug up | MConst up _ | MBind up _ | MRead up _ | MUpread up _ | MLexClosure up _ _ => inv up
  | MAssert up p => inv up
  | MMerge up brs file idx done =>
    inv up /\ done = false /\ idx < length brs /\ length file = length brs
    /\ (fix all (l : list mach) (j : nat) : Prop :=
          match l with [] => True | x :: t => (if Nat.eqb j idx then inv x else quiet x) /\ all t (S j) end) brs O
  | MOr up brs cur =>
    inv up /\
    match cur with
    | None => (fix all (l : list (mach * option stack)) : Prop :=
                 match l with [] => True | (x, sl) :: t => quiet x /\ sl = None /\ all t end) brs
    | Some i => i < length brs /\
                (fix all (l : list (mach * option stack)) (j : nat) : Prop :=
                   match l with [] => True | (x, sl) :: t => (if Nat.eqb j i then inv x else quiet x /\ sl = None) /\ all t (S j) end) brs O
    end
  | MCapture up inner => inv up /\ quiet inner
  | MSubx up inner keep saved slot => inv up /\ inv inner /\ (saved = None -> quiet inner /\ slot = None)
  | MIfElse up cnd thn els active =>
    inv up /\ quiet cnd /\ quiet thn /\ quiet els /\ match active with None => True | Some (am, _) => inv am end
  | MWord up w pending => inv up
  | MClosure up inner _ slot _ _ drained => inv up /\ inv inner /\ (drained = true -> quiet inner /\ slot = None)
  | MApply up _ sub => inv up /\ match sub with None => True | Some (bm, _, _, _) => inv bm end
  | MFormat up parts oslot pos =>
    inv up /\ (fix all (l : list part) : Prop :=
                 match l with
                 | [] => True
                 | PLit _ :: t => all t
                 | POp inner slot cur :: t => inv inner /\ (cur = None -> quiet inner /\ slot = None) /\ all t
                 end) parts
  end.

Definition pinv (p : part) : Prop :=
  match p with PLit _ => True | POp inner slot cur => inv inner /\ (cur = None -> quiet inner /\ slot = None) end.

Lemma inv_format up parts oslot pos : inv (MFormat up parts oslot pos) <-> inv up /\ Forall pinv parts.
Proof.
  rewrite <- (fix_all_Forall (fun (p : part) (R : Prop) => match p with PLit _ => R | POp inner slot cur => inv inner /\ (cur = None -> quiet inner /\ slot = None) /\ R end) pinv);
    [reflexivity|]. intros [str|inner slot cur] R; cbn; tauto.
Qed.

Definition merge_brs_inv (idx : nat) (brs : list mach) : Prop :=
  forall j br, nth_error brs j = Some br -> if Nat.eqb j idx then inv br else quiet br.
Definition or_brs_inv (i : nat) (brs : list (mach * option stack)) : Prop :=
  forall j br sl, nth_error brs j = Some (br, sl) -> if Nat.eqb j i then inv br else quiet br /\ sl = None.

Lemma inv_merge up brs file idx done :
  inv (MMerge up brs file idx done) <->
  inv up /\ done = false /\ idx < length brs /\ length file = length brs /\ merge_brs_inv idx brs.
Proof.
  rewrite <- (fix_all_nth (fun j x R => (if Nat.eqb j idx then inv x else quiet x) /\ R) (fun j x => if Nat.eqb j idx then inv x else quiet x) ltac:(tauto) brs 0).
  reflexivity.
Qed.

Lemma inv_or_none up brs : inv (MOr up brs None) <-> inv up /\ all_quiet_or brs.
Proof. cbn [inv]. rewrite or_fix_quiet. reflexivity. Qed.

Lemma inv_or_some up brs i : inv (MOr up brs (Some i)) <-> inv up /\ i < length brs /\ or_brs_inv i brs.
Proof.
  cbn [inv].
  pose proof (fix_all_nth (fun j (b : mach * option stack) (R : Prop) => let (x, sl) := b in (if Nat.eqb j i then inv x else quiet x /\ sl = None) /\ R)
                (fun j b => if Nat.eqb j i then inv (fst b) else quiet (fst b) /\ snd b = None)) as V.
  cbn beta in V. rewrite V by (intros j [x sl] R; cbn; tauto).
  split; intros [A [B C]]; (split; [exact A|split; [exact B|]]); [intros j x sl E; exact (C j (x, sl) E)|intros j [x sl] E; exact (C j x sl E)].
Qed.

Lemma quiet_inv m : quiet m -> inv m.
Proof.
  induction m using mach_ind'; try (cbn [quiet inv]; tauto).
  - (* MFormat *) rewrite quiet_format, inv_format. intros [Hu [Hp _]]. split; [auto|].
    rewrite Forall_forall in *. intros [str|inner slot cur] Hin; [exact I|].
    destruct (Hp _ Hin) as [Q [-> ->]]. split; [exact (H _ Hin Q)|auto].
  - (* MMerge *) rewrite quiet_merge, inv_merge. intros [Hu [Hb [_ [-> [-> [Hl Hn]]]]]].
    repeat split; auto; [destruct brs; [congruence|cbn; lia]|].
    intros j br Hj. apply nth_error_In in Hj. unfold all_quiet in Hb. rewrite Forall_forall in *.
    destruct (Nat.eqb j 0); auto.
  - (* MOr *) rewrite quiet_or. intros [Hu [Hb ->]]. apply inv_or_none. auto.
  - (* MIfElse *) cbn [quiet inv]. intros [? [? [? [? ->]]]]. tauto.
  - (* MApply *) cbn [quiet inv]. intros [? ->]. tauto.
Qed.

Fixpoint nodone (c : lctx) : Prop :=
  match c with LOrigin _ => True | LTine _ _ done _ uc => done = false /\ nodone uc end.
Fixpoint cinv (c : lctx) : Prop :=
  match c with LOrigin _ => True | LTine i file _ up uc => i < length file /\ inv up /\ cinv uc end.
Fixpoint shape (c c' : lctx) : Prop :=
  match c, c' with
  | LOrigin _, LOrigin _ => True
  | LTine i f _ _ uc, LTine i' f' _ _ uc' => i' = i /\ length f' = length f /\ shape uc uc'
  | _, _ => False
  end.
(* what a context looks like after a pull that returned a stack (none = false) or nothing (none = true) *)
Fixpoint cpost (c' : lctx) (none : bool) : Prop :=
  match c' with
  | LOrigin sl' => none = true -> sl' = None
  | LTine _ file done up uc =>
    if done then none = true /\ quiet up /\ all_none file = true /\ cpost uc true else nodone uc
  end.

Definition isnone {A} (o : option A) : bool := match o with None => true | Some _ => false end.

Lemma shape_refl c : shape c c.
Proof. induction c as [sl|i f d up uc IH]; cbn; auto. Qed.
Lemma shape_trans : forall a b c, shape a b -> shape b c -> shape a c.
Proof.
  induction a as [sl|i f d up uc IH]; intros [sl'|i' f' d' up' uc'] [sl''|i'' f'' d'' up'' uc'']; cbn; try tauto.
  intros [-> [L1 S1]] [-> [L2 S2]]. split; [reflexivity|]. split; [congruence|]. eapply IH; eauto.
Qed.
Lemma cpost_false_nodone c : cpost c false -> nodone c.
Proof. destruct c as [sl|i f d up uc]; cbn; [auto|]. destruct d; [intros [H _]; discriminate|auto]. Qed.
Lemma nodone_cpost_false c : nodone c -> cpost c false.
Proof. destruct c as [sl|i f d up uc]; cbn; [discriminate|]. intros [-> H]. exact H. Qed.

Lemma set_nth_length {A} (x : A) : forall l i, length (set_nth i x l) = length l.
Proof. induction l as [|h t IH]; intros [|i]; cbn; auto. Qed.
Lemma nth_error_set_nth_eq {A} (x : A) : forall l i, i < length l -> nth_error (set_nth i x l) i = Some x.
Proof. induction l as [|h t IH]; intros [|i] H; cbn in *; try lia; auto. apply IH. lia. Qed.
Lemma nth_error_set_nth_neq {A} (x : A) : forall l i j, i <> j -> nth_error (set_nth i x l) j = nth_error l j.
Proof. induction l as [|h t IH]; intros [|i] [|j] H; cbn; auto; congruence. Qed.
Lemma map_set_nth {A B} (g : A -> B) (x : A) : forall l i, map g (set_nth i x l) = set_nth i (g x) (map g l).
Proof. induction l as [|h t IH]; intros [|i]; cbn; auto. f_equal. apply IH. Qed.
Lemma set_nth_same {A} : forall (l : list A) i x, nth_error l i = Some x -> set_nth i x l = l.
Proof. induction l as [|h t IH]; intros [|i] x H; cbn in *; try discriminate; [inversion H; reflexivity|f_equal; apply IH; exact H]. Qed.

Lemma nth_error_set_nth {A} (x : A) l i j y :
  nth_error (set_nth i x l) j = Some y -> j = i /\ y = x \/ j <> i /\ nth_error l j = Some y.
Proof.
  intros H. destruct (Nat.eq_dec j i) as [->|NE]; [left|right; rewrite nth_error_set_nth_neq in H by auto; auto].
  rewrite nth_error_set_nth_eq in H; [inversion H; auto|]. rewrite <- (set_nth_length x l i). apply nth_error_Some. congruence.
Qed.

Lemma all_quiet_nth brs : all_quiet brs <-> (forall j br, nth_error brs j = Some br -> quiet br).
Proof. apply Forall_nth_error. Qed.

Lemma all_quiet_or_nth brs : all_quiet_or brs <-> (forall j br sl, nth_error brs j = Some (br, sl) -> quiet br /\ sl = None).
Proof.
  unfold all_quiet_or. rewrite Forall_nth_error.
  split; [intros H j br sl; exact (H j (br, sl))|intros H j [br sl]; exact (H j br sl)].
Qed.

Lemma merge_brs_inv_set idx brs br' : merge_brs_inv idx brs -> inv br' -> merge_brs_inv idx (set_nth idx br' brs).
Proof.
  intros Hb J j b Hj. destruct (nth_error_set_nth _ _ _ _ _ Hj) as [[-> ->]|[NE Hj']]; [rewrite Nat.eqb_refl; exact J|exact (Hb j b Hj')].
Qed.

Lemma merge_brs_quiet_set idx brs br' : merge_brs_inv idx brs -> quiet br' -> all_quiet (set_nth idx br' brs).
Proof.
  intros Hb J. apply all_quiet_nth. intros j b Hj. destruct (nth_error_set_nth _ _ _ _ _ Hj) as [[-> ->]|[NE Hj']]; [exact J|].
  specialize (Hb j b Hj'). rewrite (proj2 (Nat.eqb_neq j idx) NE) in Hb. exact Hb.
Qed.

Lemma or_brs_inv_set i brs br' sl' : or_brs_inv i brs -> inv br' -> or_brs_inv i (set_nth i (br', sl') brs).
Proof.
  intros Hb J j b sl Hj. destruct (nth_error_set_nth _ _ _ _ _ Hj) as [[-> E]|[NE Hj']]; [rewrite Nat.eqb_refl; congruence|exact (Hb j b sl Hj')].
Qed.

Lemma or_brs_quiet_set i brs br' : or_brs_inv i brs -> quiet br' -> all_quiet_or (set_nth i (br', None) brs).
Proof.
  intros Hb J. apply all_quiet_or_nth. intros j b sl Hj. destruct (nth_error_set_nth _ _ _ _ _ Hj) as [[-> E]|[NE Hj']]; [inversion E; auto|].
  specialize (Hb j b sl Hj'). rewrite (proj2 (Nat.eqb_neq j i) NE) in Hb. exact Hb.
Qed.

Lemma all_quiet_merge_brs_inv idx brs : all_quiet brs -> merge_brs_inv idx brs.
Proof. intros Q j b Hj. pose proof (proj1 (all_quiet_nth brs) Q j b Hj). destruct (Nat.eqb j idx); [apply quiet_inv|]; assumption. Qed.

(* `next` at a leaf and at a format op, and `snext`, one level unfolded.  The
   rules below say the same for the paths that return; the equations also show
   which paths end in Stuck or Abort. *)
Lemma next_leaf_origin f env sl s : next (S f) env MLeaf (LOrigin sl) s = Ret (sl, MLeaf, LOrigin None, s, []).
Proof. reflexivity. Qed.
Lemma next_leaf_tine f env i file done up uc s :
  next (S f) env MLeaf (LTine i file done up uc) s =
  if done then Ret (None, MLeaf, LTine i file done up uc, s, [])
  else if all_none file then
    match next f env up uc s with
    | Ret (Some stk, up', uc', s', e) =>
      let file' := map (fun _ => Some stk) file in
      Ret (nth i file' None, MLeaf, LTine i (set_nth i None file') false up' uc', s', e)
    | Ret (None, up', uc', s', e) => Ret (None, MLeaf, LTine i file true up' uc', s', e)
    | o => o
    end
  else Ret (nth i file None, MLeaf, LTine i (set_nth i None file) done up uc, s, []).
Proof. reflexivity. Qed.

Lemma snext_nil f env oslot s : snext (S f) env [] oslot s =
  match oslot with Some stk => Ret (Some (stk, []), [], None, s, []) | None => Ret (None, [], None, s, []) end.
Proof. reflexivity. Qed.

Lemma snext_lit f env str rest oslot s : snext (S f) env (PLit str :: rest) oslot s =
  match snext f env rest oslot s with
  | Ret (Some (stk, suffix), rest', oslot', s', e) => Ret (Some (stk, str ++ suffix), PLit str :: rest', oslot', s', e)
  | Ret (None, rest', oslot', s', e) => Ret (None, PLit str :: rest', oslot', s', e)
  | Fuel => Fuel | Stuck => Stuck | Abort => Abort
  end.
Proof. reflexivity. Qed.

Lemma snext_op_idle f env inner slot rest oslot s : snext (S f) env (POp inner slot None :: rest) oslot s =
  match snext f env rest oslot s with
  | Ret (Some (stk, suffix), rest', oslot', s', e) =>
    match snext f env (POp inner (Some stk) (Some suffix) :: rest') oslot' s' with
    | Ret (r, parts', oslot'', s'', e') => Ret (r, parts', oslot'', s'', e ++ e')
    | o => o
    end
  | Ret (None, rest', oslot', s', e) => Ret (None, POp inner slot None :: rest', oslot', s', e)
  | Fuel => Fuel | Stuck => Stuck | Abort => Abort
  end.
Proof. reflexivity. Qed.

Lemma snext_op_busy f env inner slot suffix rest oslot s : snext (S f) env (POp inner slot (Some suffix) :: rest) oslot s =
  match next f env inner (LOrigin slot) s with
  | Ret (Some (v :: stk), inner', LOrigin sl, s', e) =>
    Ret (Some (stk, show (p_tc P) v ++ suffix), POp inner' sl (Some suffix) :: rest, oslot, s', e)
  | Ret (Some [], _, _, _, _) => Abort
  | Ret (None, inner', LOrigin sl, s', e) =>
    match snext f env (POp inner' sl None :: rest) oslot s' with
    | Ret (r, parts', oslot', s'', e') => Ret (r, parts', oslot', s'', e ++ e')
    | o => o
    end
  | Ret _ => Stuck
  | Fuel => Fuel | Stuck => Stuck | Abort => Abort
  end.
Proof. reflexivity. Qed.

Lemma next_format f env up parts oslot pos c s : next (S f) env (MFormat up parts oslot pos) c s =
  match snext f env parts oslot s with
  | Ret (Some (stk, str), parts', oslot', s', e) =>
    Ret (Some (VStr str pos :: stk), MFormat up parts' oslot' (pos + 1)%N, c, s', e)
  | Ret (None, parts', oslot', s', e) =>
    match next f env up c s' with
    | Ret (Some stk, up', c', s'', e') => add_errs (e ++ e') (next f env (MFormat up' parts' (Some stk) 0%N) c' s'')
    | Ret (None, up', c', s'', e') => Ret (None, MFormat up' parts' oslot' pos, c', s'', e ++ e')
    | o => o
    end
  | Fuel => Fuel | Stuck => Stuck | Abort => Abort
  end.
Proof. reflexivity. Qed.

(* `next (S f)` and `snext (S f)` by cases, one per path through the code that
   returns; the premises are what the calls with fuel f returned: U the pull of
   the upstream, B of a sub-chain (a branch, a body, the chain of a stringer), C
   of the condition of if-else, K the op pulled again, Sn the stringers, T the
   loop of `||` over its branches, G1/G2 what else the path depends on (tests,
   and the loops `peval` and `drain`, which like `or_try` stay as they are: a
   statement that looks at what they do needs a lemma about them, as
   `or_try_spec`, `or_try_same`).  One inductive per op, so that an inversion with
   the op known meets the rules of that op only; `next_at` selects by the op, and
   all cases of `H : next_at f env m ...` are `destruct m; destruct H`.  `next_S`
   leads from a result to its rule, not back.  A statement that speaks of the
   sub-chains of format ops needs a twin about `snext`, proved in the same
   induction on the fuel (`MainS`, `SameS`). *)
Section Rules.
Variables (f : nat) (env : list value).

(* context and store before a pull; what it returned, the op's new state, context and store, the diagnostics *)
Definition pull_rel := lctx -> store -> option stack -> mach -> lctx -> store -> list soft -> Prop.

(* op_origin, op_tine *)
Inductive leaf_at : pull_rel :=
| p_origin sl s :
    leaf_at (LOrigin sl) s sl MLeaf (LOrigin None) s []
| p_tine_done i file up uc s :
    leaf_at (LTine i file true up uc) s None MLeaf (LTine i file true up uc) s []
| p_tine_fill i file up uc s stk up' uc' s' e
    (G1 : all_none file = true)
    (U : next f env up uc s = Ret (Some stk, up', uc', s', e)) :
    leaf_at (LTine i file false up uc) s (nth i (map (fun _ => Some stk) file) None) MLeaf (LTine i (set_nth i None (map (fun _ => Some stk) file)) false up' uc') s' e
| p_tine_end i file up uc s up' uc' s' e
    (G1 : all_none file = true)
    (U : next f env up uc s = Ret (None, up', uc', s', e)) :
    leaf_at (LTine i file false up uc) s None MLeaf (LTine i file true up' uc') s' e
| p_tine_take i file up uc s
    (G1 : all_none file = false) :
    leaf_at (LTine i file false up uc) s (nth i file None) MLeaf (LTine i (set_nth i None file) false up uc) s [].

Inductive nop_at (up : mach) : pull_rel :=
| p_nop c s r up' c' s' e
    (U : next f env up c s = Ret (r, up', c', s', e)) :
    nop_at up c s r (MNop up') c' s' e.

Inductive debug_at (up : mach) : pull_rel :=
| p_debug c s r up' c' s' e
    (U : next f env up c s = Ret (r, up', c', s', e)) :
    debug_at up c s r (MDebug up') c' s' e.

Inductive const_at (up : mach) (v : value) : pull_rel :=
| p_const c s stk up' c' s' e
    (U : next f env up c s = Ret (Some stk, up', c', s', e)) :
    const_at up v c s (Some (v :: stk)) (MConst up' v) c' s' e
| p_const_end c s up' c' s' e
    (U : next f env up c s = Ret (None, up', c', s', e)) :
    const_at up v c s None (MConst up' v) c' s' e.

Inductive bind_at (up : mach) (id : N) : pull_rel :=
| p_bind c s v stk up' c' s' e
    (U : next f env up c s = Ret (Some (v :: stk), up', c', s', e)) :
    bind_at up id c s (Some stk) (MBind up' id) c' (update s' id v) e
| p_bind_end c s up' c' s' e
    (U : next f env up c s = Ret (None, up', c', s', e)) :
    bind_at up id c s None (MBind up' id) c' s' e.

Inductive read_at (up : mach) (id : N) : pull_rel :=
| p_read c s stk up' c' s' e v
    (U : next f env up c s = Ret (Some stk, up', c', s', e))
    (G1 : lookup s' id = Some v) :
    read_at up id c s (Some (v :: stk)) (MRead up' id) c' s' e
| p_read_end c s up' c' s' e
    (U : next f env up c s = Ret (None, up', c', s', e)) :
    read_at up id c s None (MRead up' id) c' s' e.

Inductive upread_at (up : mach) (id : nat) : pull_rel :=
| p_upread c s stk up' c' s' e v
    (U : next f env up c s = Ret (Some stk, up', c', s', e))
    (G1 : nth_error env id = Some v) :
    upread_at up id c s (Some (v :: stk)) (MUpread up' id) c' s' e
| p_upread_end c s up' c' s' e
    (U : next f env up c s = Ret (None, up', c', s', e)) :
    upread_at up id c s None (MUpread up' id) c' s' e.

Inductive lexclosure_at (up : mach) (blk : N) (n : nat) : pull_rel :=
| p_lexclosure c s stk up' c' s' e vs rest
    (U : next f env up c s = Ret (Some stk, up', c', s', e))
    (G1 : pop_n n stk = Some (vs, rest)) :
    lexclosure_at up blk n c s (Some (VClo blk vs 0%N :: rest)) (MLexClosure up' blk n) c' s' e
| p_lexclosure_end c s up' c' s' e
    (U : next f env up c s = Ret (None, up', c', s', e)) :
    lexclosure_at up blk n c s None (MLexClosure up' blk n) c' s' e.

Inductive assert_at (up : mach) (p : predm) : pull_rel :=
| p_assert_yes c s stk up' c' s' e s'' e'
    (U : next f env up c s = Ret (Some stk, up', c', s', e))
    (G1 : peval P (next f) env p stk s' = Ret (PYes, s'', e')) :
    assert_at up p c s (Some stk) (MAssert up' p) c' s'' (e ++ e')
| p_assert_skip c s stk up' c' s' e pr s'' e' r m2 c2 s2 e2
    (U : next f env up c s = Ret (Some stk, up', c', s', e))
    (G1 : peval P (next f) env p stk s' = Ret (pr, s'', e'))
    (G2 : pr <> PYes)
    (K : next f env (MAssert up' p) c' s'' = Ret (r, m2, c2, s2, e2)) :
    assert_at up p c s r m2 c2 s2 ((e ++ e') ++ e2)
| p_assert_end c s up' c' s' e
    (U : next f env up c s = Ret (None, up', c', s', e)) :
    assert_at up p c s None (MAssert up' p) c' s' e.

Inductive format_at (up : mach) (parts : list part) (oslot : option stack) (pos : N) : pull_rel :=
| p_format c s stk str parts' oslot' s' e
    (Sn : snext f env parts oslot s = Ret (Some (stk, str), parts', oslot', s', e)) :
    format_at up parts oslot pos c s (Some (VStr str pos :: stk)) (MFormat up parts' oslot' (pos + 1)%N) c s' e
| p_format_next c s parts' oslot' s' e stk up' c' s'' e' r m2 c2 s2 e2
    (Sn : snext f env parts oslot s = Ret (None, parts', oslot', s', e))
    (U : next f env up c s' = Ret (Some stk, up', c', s'', e'))
    (K : next f env (MFormat up' parts' (Some stk) 0%N) c' s'' = Ret (r, m2, c2, s2, e2)) :
    format_at up parts oslot pos c s r m2 c2 s2 ((e ++ e') ++ e2)
| p_format_end c s parts' oslot' s' e up' c' s'' e'
    (Sn : snext f env parts oslot s = Ret (None, parts', oslot', s', e))
    (U : next f env up c s' = Ret (None, up', c', s'', e')) :
    format_at up parts oslot pos c s None (MFormat up' parts' oslot' pos) c' s'' (e ++ e').

Inductive merge_at (up : mach) (brs : list mach) (file : list (option stack)) (idx : nat) : bool -> pull_rel :=
| p_merge_done c s :
    merge_at up brs file idx true c s None (MMerge up brs file O false) c s []
| p_merge c s br stk br' i' file' done' up' c' s' e
    (G1 : nth_error brs idx = Some br)
    (B : next f env br (LTine idx file false up c) s = Ret (Some stk, br', LTine i' file' done' up' c', s', e)) :
    merge_at up brs file idx false c s (Some stk) (MMerge up' (set_nth idx br' brs) file' idx done') c' s' e
| p_merge_end c s br br' i' file' up' c' s' e
    (G1 : nth_error brs idx = Some br)
    (B : next f env br (LTine idx file false up c) s = Ret (None, br', LTine i' file' true up' c', s', e)) :
    merge_at up brs file idx false c s None (MMerge up' (set_nth idx br' brs) file' O false) c' s' e
| p_merge_next c s br br' i' file' up' c' s' e r m2 c2 s2 e2
    (G1 : nth_error brs idx = Some br)
    (B : next f env br (LTine idx file false up c) s = Ret (None, br', LTine i' file' false up' c', s', e))
    (K : next f env (MMerge up' (set_nth idx br' brs) file' (if Nat.eqb (S idx) (length brs) then O else S idx) false) c' s' = Ret (r, m2, c2, s2, e2)) :
    merge_at up brs file idx false c s r m2 c2 s2 (e ++ e2).

Inductive or_at (up : mach) (brs : list (mach * option stack)) : option nat -> pull_rel :=
| p_or_take c s stk up' c' s' e r i brs' s'' e'
    (U : next f env up c s = Ret (Some stk, up', c', s', e))
    (T : or_try (next f) env [] brs O stk s' e = Ret (Some (r, i), brs', s'', e')) :
    or_at up brs None c s (Some r) (MOr up' brs' (Some i)) c' s'' e'
| p_or_none c s stk up' c' s' e brs' s'' e' r m2 c2 s2 e2
    (U : next f env up c s = Ret (Some stk, up', c', s', e))
    (T : or_try (next f) env [] brs O stk s' e = Ret (None, brs', s'', e'))
    (K : next f env (MOr up' brs' None) c' s'' = Ret (r, m2, c2, s2, e2)) :
    or_at up brs None c s r m2 c2 s2 (e' ++ e2)
| p_or_end c s up' c' s' e
    (U : next f env up c s = Ret (None, up', c', s', e)) :
    or_at up brs None c s None (MOr up' brs None) c' s' e
| p_or_more i c s br sl r br' sl' s' e
    (G1 : nth_error brs i = Some (br, sl))
    (B : next f env br (LOrigin sl) s = Ret (Some r, br', LOrigin sl', s', e)) :
    or_at up brs (Some i) c s (Some r) (MOr up (set_nth i (br', sl') brs) (Some i)) c s' e
| p_or_dry i c s br sl br' sl' s' e r m2 c2 s2 e2
    (G1 : nth_error brs i = Some (br, sl))
    (B : next f env br (LOrigin sl) s = Ret (None, br', LOrigin sl', s', e))
    (K : next f env (MOr up (set_nth i (br', sl') brs) None) c s' = Ret (r, m2, c2, s2, e2)) :
    or_at up brs (Some i) c s r m2 c2 s2 (e ++ e2).

Inductive capture_at (up inner : mach) : pull_rel :=
| p_capture c s stk up' c' s' e vs s'' e'
    (U : next f env up c s = Ret (Some stk, up', c', s', e))
    (G1 : drain (next f) f env inner (LOrigin (Some stk)) s' [] e = Ret (vs, s'', e')) :
    capture_at up inner c s (Some (VSeq vs 0%N :: stk)) (MCapture up' inner) c' s'' e'
| p_capture_end c s up' c' s' e
    (U : next f env up c s = Ret (None, up', c', s', e)) :
    capture_at up inner c s None (MCapture up' inner) c' s' e.

(* op_tr_closure *)
Inductive closure_at (up inner : mach) : bool -> option stack -> list stack -> list stack -> bool -> pull_rel :=
| p_closure_seen plus slot seen stks c s stk inner' sl s' e r m2 c2 s2 e2
    (B : next f env inner (LOrigin slot) s = Ret (Some stk, inner', LOrigin sl, s', e))
    (G1 : seen_mem stk seen = true)
    (K : next f env (MClosure up inner' plus sl seen stks false) c s' = Ret (r, m2, c2, s2, e2)) :
    closure_at up inner plus slot seen stks false c s r m2 c2 s2 (e ++ e2)
| p_closure_yield plus slot seen stks c s stk inner' sl s' e
    (B : next f env inner (LOrigin slot) s = Ret (Some stk, inner', LOrigin sl, s', e))
    (G1 : seen_mem stk seen = false) :
    closure_at up inner plus slot seen stks false c s (Some stk) (MClosure up inner' plus sl (stk :: seen) (stk :: stks) false) c s' e
| p_closure_dry plus slot seen stks c s inner' sl s' e r m2 c2 s2 e2
    (B : next f env inner (LOrigin slot) s = Ret (None, inner', LOrigin sl, s', e))
    (K : next f env (MClosure up inner' plus sl seen stks true) c s' = Ret (r, m2, c2, s2, e2)) :
    closure_at up inner plus slot seen stks false c s r m2 c2 s2 (e ++ e2)
| p_closure_send plus slot seen stk rest c s r m2 c2 s2 e2
    (K : next f env (MClosure up inner plus (Some stk) seen rest false) c s = Ret (r, m2, c2, s2, e2)) :
    closure_at up inner plus slot seen (stk :: rest) true c s r m2 c2 s2 e2
| p_closure_plus slot seen c s stk up' c' s' e r m2 c2 s2 e2
    (U : next f env up c s = Ret (Some stk, up', c', s', e))
    (K : next f env (MClosure up' inner true (Some stk) [] [] false) c' s' = Ret (r, m2, c2, s2, e2)) :
    closure_at up inner true slot seen [] true c s r m2 c2 s2 (e ++ e2)
| p_closure_star slot seen c s stk up' c' s' e
    (U : next f env up c s = Ret (Some stk, up', c', s', e)) :
    closure_at up inner false slot seen [] true c s (Some stk) (MClosure up' inner false slot [stk] [stk] true) c' s' e
| p_closure_end plus slot seen c s up' c' s' e
    (U : next f env up c s = Ret (None, up', c', s', e)) :
    closure_at up inner plus slot seen [] true c s None (MClosure up' inner plus slot [] [] true) c' s' e.

Inductive subx_at (up inner : mach) (keep : nat) : option stack -> option stack -> pull_rel :=
| p_subx_save slot c s stk up' c' s' e r m2 c2 s2 e2
    (U : next f env up c s = Ret (Some stk, up', c', s', e))
    (K : next f env (MSubx up' inner keep (Some stk) (Some stk)) c' s' = Ret (r, m2, c2, s2, e2)) :
    subx_at up inner keep None slot c s r m2 c2 s2 (e ++ e2)
| p_subx_end slot c s up' c' s' e
    (U : next f env up c s = Ret (None, up', c', s', e)) :
    subx_at up inner keep None slot c s None (MSubx up' inner keep None slot) c' s' e
| p_subx_yield sv slot c s r inner' sl s' e out
    (B : next f env inner (LOrigin slot) s = Ret (Some r, inner', LOrigin sl, s', e))
    (G1 : subx_result keep r sv = Some out) :
    subx_at up inner keep (Some sv) slot c s (Some out) (MSubx up inner' keep (Some sv) sl) c s' e
| p_subx_dry sv slot c s inner' sl s' e r m2 c2 s2 e2
    (B : next f env inner (LOrigin slot) s = Ret (None, inner', LOrigin sl, s', e))
    (K : next f env (MSubx up inner' keep None sl) c s' = Ret (r, m2, c2, s2, e2)) :
    subx_at up inner keep (Some sv) slot c s r m2 c2 s2 (e ++ e2).

Inductive if_at (up cnd thn els : mach) : option (mach * option stack) -> pull_rel :=
| p_if_then c s stk up' c' s' e x cm cc s'' e' r m2 c2 s2 e2
    (U : next f env up c s = Ret (Some stk, up', c', s', e))
    (C : next f env cnd (LOrigin (Some stk)) s' = Ret (Some x, cm, cc, s'', e'))
    (K : next f env (MIfElse up' cnd thn els (Some (thn, Some stk))) c' s'' = Ret (r, m2, c2, s2, e2)) :
    if_at up cnd thn els None c s r m2 c2 s2 ((e ++ e') ++ e2)
| p_if_else c s stk up' c' s' e cm cc s'' e' r m2 c2 s2 e2
    (U : next f env up c s = Ret (Some stk, up', c', s', e))
    (C : next f env cnd (LOrigin (Some stk)) s' = Ret (None, cm, cc, s'', e'))
    (K : next f env (MIfElse up' cnd thn els (Some (els, Some stk))) c' s'' = Ret (r, m2, c2, s2, e2)) :
    if_at up cnd thn els None c s r m2 c2 s2 ((e ++ e') ++ e2)
| p_if_end c s up' c' s' e
    (U : next f env up c s = Ret (None, up', c', s', e)) :
    if_at up cnd thn els None c s None (MIfElse up' cnd thn els None) c' s' e
| p_if_yield am sl c s r am' sl' s' e
    (B : next f env am (LOrigin sl) s = Ret (Some r, am', LOrigin sl', s', e)) :
    if_at up cnd thn els (Some (am, sl)) c s (Some r) (MIfElse up cnd thn els (Some (am', sl'))) c s' e
| p_if_dry am sl c s am' ca s' e r m2 c2 s2 e2
    (B : next f env am (LOrigin sl) s = Ret (None, am', ca, s', e))
    (K : next f env (MIfElse up cnd thn els None) c s' = Ret (r, m2, c2, s2, e2)) :
    if_at up cnd thn els (Some (am, sl)) c s r m2 c2 s2 (e ++ e2).

Inductive word_at (up : mach) (w : word) : list stack -> pull_rel :=
| p_word_pending stk rest c s :
    word_at up w (stk :: rest) c s (Some stk) (MWord up w rest) c s []
| p_word c s stk up' c' s' e o outs e'
    (U : next f env up c s = Ret (Some stk, up', c', s', e))
    (G1 : run_word P w stk = WOut (o :: outs) e') :
    word_at up w [] c s (Some o) (MWord up' w outs) c' s' (e ++ e')
| p_word_none c s stk up' c' s' e e' r m2 c2 s2 e2
    (U : next f env up c s = Ret (Some stk, up', c', s', e))
    (G1 : run_word P w stk = WOut [] e')
    (K : next f env (MWord up' w []) c' s' = Ret (r, m2, c2, s2, e2)) :
    word_at up w [] c s r m2 c2 s2 ((e ++ e') ++ e2)
| p_word_end c s up' c' s' e
    (U : next f env up c s = Ret (None, up', c', s', e)) :
    word_at up w [] c s None (MWord up' w []) c' s' e.

Inductive apply_at (up : mach) : bool -> option (mach * option stack * store * list value) -> pull_rel :=
| p_apply_enter skip c s blk cenv p rest up' c' s' e body r m2 c2 s2 e2
    (U : next f env up c s = Ret (Some (VClo blk cenv p :: rest), up', c', s', e))
    (G1 : nth_error blks (N.to_nat blk) = Some body)
    (K : next f env (MApply up' skip (Some (body, Some rest, [], cenv))) c' s' = Ret (r, m2, c2, s2, e2)) :
    apply_at up skip None c s r m2 c2 s2 (e ++ e2)
| p_apply_pass c s v rest up' c' s' e
    (U : next f env up c s = Ret (Some (v :: rest), up', c', s', e))
    (G1 : (forall blk cenv p, v <> VClo blk cenv p)) :
    apply_at up true None c s (Some (v :: rest)) (MApply up' true None) c' s' e
| p_apply_err c s v rest up' c' s' e r m2 c2 s2 e2
    (U : next f env up c s = Ret (Some (v :: rest), up', c', s', e))
    (G1 : (forall blk cenv p, v <> VClo blk cenv p))
    (K : next f env (MApply up' false None) c' s' = Ret (r, m2, c2, s2, e2)) :
    apply_at up false None c s r m2 c2 s2 ((e ++ [SErr]) ++ e2)
| p_apply_end skip c s up' c' s' e
    (U : next f env up c s = Ret (None, up', c', s', e)) :
    apply_at up skip None c s None (MApply up' skip None) c' s' e
| p_apply_yield skip bm bsl bs benv c s r bm' bsl' bs' e
    (B : next f benv bm (LOrigin bsl) bs = Ret (Some r, bm', LOrigin bsl', bs', e)) :
    apply_at up skip (Some (bm, bsl, bs, benv)) c s (Some r) (MApply up skip (Some (bm', bsl', bs', benv))) c s e
| p_apply_dry skip bm bsl bs benv c s bm' cb bs' e r m2 c2 s2 e2
    (B : next f benv bm (LOrigin bsl) bs = Ret (None, bm', cb, bs', e))
    (K : next f env (MApply up skip None) c s = Ret (r, m2, c2, s2, e2)) :
    apply_at up skip (Some (bm, bsl, bs, benv)) c s r m2 c2 s2 (e ++ e2).

Definition next_at (m : mach) : pull_rel :=
  match m with
  | MLeaf => leaf_at
  | MNop up => nop_at up
  | MDebug up => debug_at up
  | MConst up v => const_at up v
  | MAssert up p => assert_at up p
  | MFormat up parts oslot pos => format_at up parts oslot pos
  | MMerge up brs file idx done => merge_at up brs file idx done
  | MOr up brs cur => or_at up brs cur
  | MCapture up inner => capture_at up inner
  | MClosure up inner plus slot seen stks drained => closure_at up inner plus slot seen stks drained
  | MSubx up inner keep saved slot => subx_at up inner keep saved slot
  | MBind up id => bind_at up id
  | MRead up id => read_at up id
  | MUpread up id => upread_at up id
  | MLexClosure up blk n => lexclosure_at up blk n
  | MIfElse up cnd thn els active => if_at up cnd thn els active
  | MWord up w pending => word_at up w pending
  | MApply up skip sub => apply_at up skip sub
  end.

(* stringer::next *)
Inductive snext_at : list part -> option stack -> store ->
             option (stack * bytes) -> list part -> option stack -> store -> list soft -> Prop :=
| s_origin stk s :
    snext_at [] (Some stk) s (Some (stk, [])) [] None s []
| s_origin_end s :
    snext_at [] None s None [] None s []
| s_lit str rest oslot s stk suffix rest' oslot' s' e
    (Sn : snext f env rest oslot s = Ret (Some (stk, suffix), rest', oslot', s', e)) :
    snext_at (PLit str :: rest) oslot s (Some (stk, str ++ suffix)) (PLit str :: rest') oslot' s' e
| s_lit_end str rest oslot s rest' oslot' s' e
    (Sn : snext f env rest oslot s = Ret (None, rest', oslot', s', e)) :
    snext_at (PLit str :: rest) oslot s None (PLit str :: rest') oslot' s' e
| s_op_start inner slot rest oslot s stk suffix rest' oslot' s' e r parts2 os2 s2 e2
    (Sn : snext f env rest oslot s = Ret (Some (stk, suffix), rest', oslot', s', e))
    (K : snext f env (POp inner (Some stk) (Some suffix) :: rest') oslot' s' = Ret (r, parts2, os2, s2, e2)) :
    snext_at (POp inner slot None :: rest) oslot s r parts2 os2 s2 (e ++ e2)
| s_op_end inner slot rest oslot s rest' oslot' s' e
    (Sn : snext f env rest oslot s = Ret (None, rest', oslot', s', e)) :
    snext_at (POp inner slot None :: rest) oslot s None (POp inner slot None :: rest') oslot' s' e
| s_op_yield inner slot suffix rest oslot s v stk inner' sl s' e
    (B : next f env inner (LOrigin slot) s = Ret (Some (v :: stk), inner', LOrigin sl, s', e)) :
    snext_at (POp inner slot (Some suffix) :: rest) oslot s (Some (stk, show (p_tc P) v ++ suffix)) (POp inner' sl (Some suffix) :: rest) oslot s' e
| s_op_dry inner slot suffix rest oslot s inner' sl s' e r parts2 os2 s2 e2
    (B : next f env inner (LOrigin slot) s = Ret (None, inner', LOrigin sl, s', e))
    (K : snext f env (POp inner' sl None :: rest) oslot s' = Ret (r, parts2, os2, s2, e2)) :
    snext_at (POp inner slot (Some suffix) :: rest) oslot s r parts2 os2 s2 (e ++ e2).
End Rules.

(* `cbn` leaves a call of the other function of the mutual fixpoint unfolded: `fold` puts the name back *)
Lemma next_S f env m c s r m' c' s' e : next (S f) env m c s = Ret (r, m', c', s', e) -> next_at f env m c s r m' c' s' e.
Proof.
  intros H. destruct m; cbn [EngineM.next] in H; fold snext in H;
    repeat peel H; try (injection H as <- <- <- <- <-);
    solve [econstructor; solve [eassumption|congruence]].
Qed.

Lemma snext_S f env parts oslot s r parts' oslot' s' e :
  snext (S f) env parts oslot s = Ret (r, parts', oslot', s', e) -> snext_at f env parts oslot s r parts' oslot' s' e.
Proof.
  intros H. destruct parts as [|[str|inner slot [suffix|]] rest]; cbn [EngineM.snext] in H; fold next in H;
    repeat peel H; injection H as <- <- <- <- <-; solve [econstructor; eassumption].
Qed.

(* the bodies of the program's blocks are stored as constructed *)
Hypothesis blks_quiet : Forall quiet blks.

(* `nodone c` is met wherever a chain is pulled: trivially on an origin; a merge op builds the tine for its
   branch with its own `done`, false by `inv` *)
Definition Main (f : nat) : Prop :=
  forall env m c s r m' c' s' e, inv m -> cinv c -> nodone c ->
    next f env m c s = Ret (r, m', c', s', e) ->
    inv m' /\ cinv c' /\ shape c c' /\ cpost c' (isnone r) /\ (r = None -> quiet m').

Definition Concl (c : lctx) (r : option stack) (m' : mach) (c' : lctx) : Prop :=
  inv m' /\ cinv c' /\ shape c c' /\ cpost c' (isnone r) /\ (r = None -> quiet m').

(* an op whose state is that of its upstream with something around it: what the pull of the upstream gives, it gives *)
Lemma concl_wrap c r r' up' m' c' :
  Concl c r up' c' -> isnone r' = isnone r -> (inv up' -> inv m') -> (r' = None -> quiet up' -> quiet m') -> Concl c r' m' c'.
Proof.
  intros [A [B [C [D E]]]] N I Q. unfold Concl. rewrite N. repeat split; auto.
  intros ->. apply Q; [reflexivity|]. apply E. destruct r; [discriminate|reflexivity].
Qed.

Lemma chain_concl c c1 r m' c' : shape c c1 -> Concl c1 r m' c' -> Concl c r m' c'.
Proof. intros S [A [B [C [D E]]]]. repeat split; auto. eapply shape_trans; eauto. Qed.

(* after a pull that returned a stack, the chain is pulled again *)
Lemma concl_then c c1 x up1 r m' c' :
  Concl c (Some x) up1 c1 -> (inv up1 -> cinv c1 -> nodone c1 -> Concl c1 r m' c') -> Concl c r m' c'.
Proof. intros [A [B [C [D E]]]] K. eapply chain_concl; [exact C|]. apply K; auto. apply cpost_false_nodone. exact D. Qed.

(* a result that did not involve the upstream *)
Lemma concl_same c x m' : inv m' -> cinv c -> nodone c -> Concl c (Some x) m' c.
Proof. intros A B C. repeat split; auto; [apply shape_refl|apply nodone_cpost_false; exact C|discriminate]. Qed.

(* a pull of a sub-chain that sits on its own origin *)
Lemma concl_sub sl r m' sl' : Concl (LOrigin sl) r m' (LOrigin sl') -> inv m' /\ (r = None -> quiet m' /\ sl' = None).
Proof. intros [A [B [C [D E]]]]. split; [exact A|]. intros ->. split; [apply E|apply D]; reflexivity. Qed.

(* what is known of a pull with fuel f, in the form the cases below use it *)
Lemma main_at f (IHf : Main f) {env m c s r m' c' s' e} :
  next f env m c s = Ret (r, m', c', s', e) -> inv m -> cinv c -> nodone c -> Concl c r m' c'.
Proof. intros H Hm Hc Hn. exact (IHf _ _ _ _ _ _ _ _ _ Hm Hc Hn H). Qed.

(* the loop of op_or over its branches: at most one of them is left working *)
Lemma or_try_spec f : Main f -> forall post pre i env stk s errs r brs' s' e',
  all_quiet_or pre -> all_quiet_or post -> i = length pre ->
  or_try (next f) env pre post i stk s errs = Ret (r, brs', s', e') ->
  match r with
  | Some (_, k) => k < length brs' /\ or_brs_inv k brs'
  | None => all_quiet_or brs'
  end.
Proof.
  intros IHf. induction post as [|[br sl0] post' IH]; intros pre i env stk s errs r brs' s' e' Qpre Qpost -> H; cbn [or_try] in H.
  - inversion H; subst. exact Qpre.
  - inversion Qpost as [|? ? [Qbr _] Qpost']; subst. cbn [fst] in Qbr.
    destruct (next f env br (LOrigin (Some stk)) s) as [| | |[[[[rb br'] cb] sb] eb]] eqn:B; try discriminate.
    pose proof (main_at f IHf B (quiet_inv _ Qbr) I I) as J. destruct cb as [sl|]; [|destruct rb; discriminate].
    destruct (concl_sub _ _ _ _ J) as [J1 J2]. destruct rb as [rs|].
    + inversion H. split; [rewrite app_length; cbn; lia|].
      intros j b sl1 Hj. destruct (Nat.eqb_spec j (length pre)) as [->|NE].
      * rewrite nth_error_app2, Nat.sub_diag in Hj by lia. inversion Hj; subst. exact J1.
      * destruct (Nat.lt_ge_cases j (length pre)) as [L|G].
        -- rewrite nth_error_app1 in Hj by exact L. apply (proj1 (all_quiet_or_nth pre) Qpre j b sl1 Hj).
        -- rewrite nth_error_app2 in Hj by lia. destruct (j - length pre) as [|k] eqn:D; [lia|]. apply (proj1 (all_quiet_or_nth post') Qpost' k b sl1 Hj).
    + apply (IH _ _ _ _ _ _ _ _ _ _) with (4 := H); [|exact Qpost'|rewrite app_length; cbn; lia].
      apply Forall_app. split; [exact Qpre|]. constructor; [cbn; auto|constructor].
Qed.

Definition MainS (f : nat) : Prop :=
  forall env parts oslot s r parts' oslot' s' e, Forall pinv parts ->
    snext f env parts oslot s = Ret (r, parts', oslot', s', e) ->
    Forall pinv parts' /\ (r = None -> Forall pquiet parts' /\ oslot' = None).

Lemma pquiet_pinv p : pquiet p -> pinv p.
Proof. destruct p as [str|inner slot cur]; cbn; auto. intros [Q [-> ->]]. split; [apply quiet_inv; exact Q|auto]. Qed.

Lemma case_snext f : Main f -> MainS f -> MainS (S f).
Proof.
  intros IHf IHs env parts oslot s r parts' oslot' s' e Hp H. apply snext_S in H. revert Hp. destruct H; intros Hp.
  - (* s_origin *) split; [constructor|discriminate].
  - (* s_origin_end *) auto.
  - (* s_lit *) inversion Hp as [|? ? _ Hrest]. destruct (IHs _ _ _ _ _ _ _ _ _ Hrest Sn) as [J1 _]. split; [constructor; [exact I|exact J1]|discriminate].
  - (* s_lit_end *) inversion Hp as [|? ? _ Hrest]; subst. destruct (IHs _ _ _ _ _ _ _ _ _ Hrest Sn) as [J1 J2]. destruct (J2 eq_refl) as [K1 K2].
    split; [constructor; [exact I|exact J1]|]. split; [constructor; [exact I|exact K1]|exact K2].
  - (* s_op_start *) inversion Hp as [|? ? Hop Hrest]; subst. destruct Hop as [Hin Hcur]. destruct (Hcur eq_refl) as [Qin _].
    destruct (IHs _ _ _ _ _ _ _ _ _ Hrest Sn) as [J1 _].
    apply (IHs _ _ _ _ _ _ _ _ _) with (2 := K). constructor; [|exact J1]. split; [apply quiet_inv; exact Qin|discriminate].
  - (* s_op_end *) inversion Hp as [|? ? Hop Hrest]; subst. destruct Hop as [Hin Hcur]. destruct (Hcur eq_refl) as [Qin ->].
    destruct (IHs _ _ _ _ _ _ _ _ _ Hrest Sn) as [J1 J2]. destruct (J2 eq_refl) as [K1 K2].
    split; [constructor; [exact (conj Hin Hcur)|exact J1]|]. split; [constructor; [cbn; auto|exact K1]|exact K2].
  - (* s_op_yield *) inversion Hp as [|? ? Hop Hrest]; subst. destruct Hop as [Hin Hcur]. destruct (concl_sub _ _ _ _ (main_at f IHf B Hin I I)) as [J1 _].
    split; [|discriminate]. constructor; [|exact Hrest]. split; [exact J1|discriminate].
  - (* s_op_dry *) inversion Hp as [|? ? Hop Hrest]; subst. destruct Hop as [Hin Hcur]. destruct (concl_sub _ _ _ _ (main_at f IHf B Hin I I)) as [J1 J2].
    apply (IHs _ _ _ _ _ _ _ _ _) with (2 := K). constructor; [|exact Hrest]. split; [exact J1|]. intros _. exact (J2 eq_refl).
Qed.

Lemma case_format f : Main f -> MainS f -> forall env up parts oslot pos c s r m' c' s' e,
  inv (MFormat up parts oslot pos) -> cinv c -> nodone c ->
  next (S f) env (MFormat up parts oslot pos) c s = Ret (r, m', c', s', e) -> Concl c r m' c'.
Proof.
  intros IHf IHs env up parts oslot pos c s r m' c' s' e Hm Hc Hn H. apply inv_format in Hm. destruct Hm as [Hup Hp].
  apply next_S in H. inversion H; subst; destruct (IHs _ _ _ _ _ _ _ _ _ Hp Sn) as [J1 J2].
  - (* p_format *) apply concl_same; auto. apply inv_format. auto.
  - (* p_format_next *) eapply concl_then; [exact (main_at f IHf U Hup Hc Hn)|]. intros I1. apply (main_at f IHf K). apply inv_format. auto.
  - (* p_format_end *) eapply concl_wrap; [exact (main_at f IHf U Hup Hc Hn)|reflexivity| |].
    + intros I1. apply inv_format. auto.
    + intros _ Q. apply quiet_format. auto.
Qed.

Lemma main_step f : Main f -> MainS f -> Main (S f).
Proof.
  intros IHf IHs env m c s r m' c' s' e Hm Hc Hn H.
  destruct m. 5: exact (case_format f IHf IHs _ _ _ _ _ _ _ _ _ _ _ _ Hm Hc Hn H).
  all: apply next_S in H.
  (* MNop, MConst, MBind, MRead, MUpread, MLexClosure, MDebug (goals 2, 3, 11-14, 18 of the eighteen, one less
     behind MFormat): the state of the op is that of its upstream *)
  2-3, 10-13, 17: destruct H; (eapply concl_wrap; [exact (main_at f IHf U Hm Hc Hn)|reflexivity|exact (fun J => J)|exact (fun _ Q => Q)]).
  - (* MLeaf *) destruct H.
    + (* p_origin *) repeat split; auto.
    + (* p_tine_done *) destruct Hn as [D _]. discriminate D.
    + (* p_tine_fill *) destruct Hc as [Hi [Hup Huc]]. destruct Hn as [_ Hnd]. destruct (main_at f IHf U Hup Huc Hnd) as [I1 [I2 [I3 [I4 I5]]]].
      cbn [isnone inv cinv shape cpost]. rewrite set_nth_length, map_length.
      repeat split; auto. apply cpost_false_nodone; exact I4.
    + (* p_tine_end *) destruct Hc as [Hi [Hup Huc]]. destruct Hn as [_ Hnd]. destruct (main_at f IHf U Hup Huc Hnd) as [I1 [I2 [I3 [I4 I5]]]].
      repeat split; auto.
    + (* p_tine_take *) destruct Hc as [Hi [Hup Huc]]. destruct Hn as [_ Hnd]. cbn [inv cinv shape cpost quiet]. rewrite set_nth_length.
      repeat split; auto. apply shape_refl.
  - (* MAssert *) destruct H.
    + (* p_assert_yes *) eapply concl_wrap; [exact (main_at f IHf U Hm Hc Hn)|reflexivity|exact (fun J => J)|exact (fun _ Q => Q)].
    + (* p_assert_skip *) exact (concl_then _ _ _ _ _ _ _ (main_at f IHf U Hm Hc Hn) (main_at f IHf K)).
    + (* p_assert_end *) eapply concl_wrap; [exact (main_at f IHf U Hm Hc Hn)|reflexivity|exact (fun J => J)|exact (fun _ Q => Q)].
  - (* MMerge *) apply inv_merge in Hm. destruct Hm as [Hup [D [Hidx [Hlen Hb]]]]. destruct H; [discriminate D|..].
    (* the pull of the working branch, on a tine of this op *)
    all: pose proof (Hb idx br G1) as Hbr; rewrite Nat.eqb_refl in Hbr.
    all: destruct (main_at f IHf B Hbr) as [I1 [I2 [I3 [I4 I5]]]]; [cbn [cinv]; repeat split; auto; lia|cbn [nodone]; auto|].
    all: destruct I3 as [-> [Lf Sh]]; destruct I2 as [Hi' [Hup' Hcu]]; cbn [isnone cpost] in I4.
    + (* p_merge *) destruct done'; [destruct I4 as [F _]; discriminate|].
      refine (conj _ (conj Hcu (conj Sh (conj (nodone_cpost_false _ I4) _)))); [|discriminate].
      apply inv_merge. rewrite set_nth_length. repeat split; auto; [congruence|]. apply merge_brs_inv_set; auto.
    + (* p_merge_end *) destruct I4 as [_ [Qup [AN Pcu]]].
      assert (quiet (MMerge up' (set_nth idx br' brs) file' 0 false)) as Q.
      { apply quiet_merge. rewrite set_nth_length. repeat split; auto; [apply merge_brs_quiet_set; auto|congruence|].
        intros E. apply (f_equal (@length mach)) in E. rewrite set_nth_length in E. cbn in E. lia. }
      exact (conj (quiet_inv _ Q) (conj Hcu (conj Sh (conj Pcu (fun _ => Q))))).
    + (* p_merge_next *) eapply chain_concl; [exact Sh|]. apply (main_at f IHf K); auto.
      apply inv_merge. rewrite set_nth_length. repeat split; auto; [destruct (Nat.eqb_spec (S idx) (length brs)); lia|congruence|].
      apply all_quiet_merge_brs_inv. apply merge_brs_quiet_set; auto.
  - (* MOr *) destruct H.
    1-3: apply inv_or_none in Hm; destruct Hm as [Hup Hb].
    4-5: apply inv_or_some in Hm; destruct Hm as [Hup [Hi Hb]]; pose proof (Hb i br sl G1) as Hbr; rewrite Nat.eqb_refl in Hbr;
      destruct (concl_sub _ _ _ _ (main_at f IHf B Hbr I I)) as [J1 J2].
    + (* p_or_take *) destruct (or_try_spec f IHf _ _ _ _ _ _ _ _ _ _ _ (Forall_nil _) Hb eq_refl T) as [Hk Hbk].
      eapply concl_wrap; [exact (main_at f IHf U Hup Hc Hn)|reflexivity|..]; [|discriminate].
      intros I1. apply inv_or_some. auto.
    + (* p_or_none *) pose proof (or_try_spec f IHf _ _ _ _ _ _ _ _ _ _ _ (Forall_nil _) Hb eq_refl T) as Qb.
      eapply concl_then; [exact (main_at f IHf U Hup Hc Hn)|]. intros I1. apply (main_at f IHf K). apply inv_or_none. auto.
    + (* p_or_end *) eapply concl_wrap; [exact (main_at f IHf U Hup Hc Hn)|reflexivity|..].
      * intros I1. apply inv_or_none. auto.
      * intros _ Q. apply quiet_or. auto.
    + (* p_or_more *) apply concl_same; auto. apply inv_or_some. rewrite set_nth_length. repeat split; auto. apply or_brs_inv_set; auto.
    + (* p_or_dry *) destruct (J2 eq_refl) as [Q ->]. apply (main_at f IHf K); auto. apply inv_or_none. split; [exact Hup|]. apply or_brs_quiet_set; auto.
  - (* MCapture *) destruct Hm as [Hup Hq]. destruct H.
    + (* p_capture *) eapply concl_wrap; [exact (main_at f IHf U Hup Hc Hn)|reflexivity|..]; cbn [inv]; auto. discriminate.
    + (* p_capture_end *) eapply concl_wrap; [exact (main_at f IHf U Hup Hc Hn)|reflexivity|..]; cbn [inv quiet]; auto.
  - (* MClosure *) destruct Hm as [Hup [Hin Hdr]]. destruct H.
    1-3: destruct (concl_sub _ _ _ _ (main_at f IHf B Hin I I)) as [J1 J2].
    4-7: destruct (Hdr eq_refl) as [Qin Es].
    + (* p_closure_seen *) apply (main_at f IHf K); auto. repeat split; auto; discriminate.
    + (* p_closure_yield *) apply concl_same; auto. repeat split; auto; discriminate.
    + (* p_closure_dry *) apply (main_at f IHf K); auto. cbn [inv]. auto.
    + (* p_closure_send *) apply (main_at f IHf K); auto. repeat split; auto; discriminate.
    + (* p_closure_plus *) eapply concl_then; [exact (main_at f IHf U Hup Hc Hn)|]. intros I1. apply (main_at f IHf K). repeat split; auto; discriminate.
    + (* p_closure_star *) eapply concl_wrap; [exact (main_at f IHf U Hup Hc Hn)|reflexivity|..]; [|discriminate]. cbn [inv]. auto.
    + (* p_closure_end *) eapply concl_wrap; [exact (main_at f IHf U Hup Hc Hn)|reflexivity|..].
      * cbn [inv]. auto.
      * cbn [quiet]. auto 8.
  - (* MSubx *) destruct Hm as [Hup [Hin Hsv]]. destruct H.
    + (* p_subx_save *) eapply concl_then; [exact (main_at f IHf U Hup Hc Hn)|]. intros I1. apply (main_at f IHf K).
      repeat split; auto; discriminate.
    + (* p_subx_end *) destruct (Hsv eq_refl) as [Qin ->]. eapply concl_wrap; [exact (main_at f IHf U Hup Hc Hn)|reflexivity|..].
      * cbn [inv]. auto.
      * cbn [quiet]. auto.
    + (* p_subx_yield *) destruct (concl_sub _ _ _ _ (main_at f IHf B Hin I I)) as [J1 _].
      apply concl_same; auto. repeat split; auto; discriminate.
    + (* p_subx_dry *) destruct (concl_sub _ _ _ _ (main_at f IHf B Hin I I)) as [J1 J2].
      apply (main_at f IHf K); auto. cbn [inv]. auto.
  - (* MIfElse *) destruct Hm as [Hup [Qc [Qt [Qe Ha]]]]. destruct H.
    + (* p_if_then *) eapply concl_then; [exact (main_at f IHf U Hup Hc Hn)|]. intros I1. apply (main_at f IHf K).
      repeat split; auto. apply quiet_inv. exact Qt.
    + (* p_if_else *) eapply concl_then; [exact (main_at f IHf U Hup Hc Hn)|]. intros I1. apply (main_at f IHf K).
      repeat split; auto. apply quiet_inv. exact Qe.
    + (* p_if_end *) eapply concl_wrap; [exact (main_at f IHf U Hup Hc Hn)|reflexivity|..].
      * cbn [inv]. auto.
      * cbn [quiet]. auto 6.
    + (* p_if_yield *) destruct (concl_sub _ _ _ _ (main_at f IHf B Ha I I)) as [J1 _].
      apply concl_same; auto. cbn [inv]. auto 6.
    + (* p_if_dry *) apply (main_at f IHf K); auto. cbn [inv]. auto 6.
  - (* MWord *) destruct H.
    + (* p_word_pending *) apply concl_same; auto.
    + (* p_word *) eapply concl_wrap; [exact (main_at f IHf U Hm Hc Hn)|reflexivity|..]; auto. discriminate.
    + (* p_word_none *) exact (concl_then _ _ _ _ _ _ _ (main_at f IHf U Hm Hc Hn) (main_at f IHf K)).
    + (* p_word_end *) eapply concl_wrap; [exact (main_at f IHf U Hm Hc Hn)|reflexivity|..]; auto. cbn [quiet]. auto.
  - (* MApply *) destruct Hm as [Hup Hs]. destruct H.
    + (* p_apply_enter *) eapply concl_then; [exact (main_at f IHf U Hup Hc Hn)|]. intros I1. apply (main_at f IHf K).
      split; [exact I1|]. apply quiet_inv. rewrite Forall_forall in blks_quiet. apply blks_quiet. eapply nth_error_In; eauto.
    + (* p_apply_pass *) eapply concl_wrap; [exact (main_at f IHf U Hup Hc Hn)|reflexivity|..]; [|discriminate]. cbn [inv]. auto.
    + (* p_apply_err *) eapply concl_then; [exact (main_at f IHf U Hup Hc Hn)|]. intros I1. apply (main_at f IHf K). cbn [inv]. auto.
    + (* p_apply_end *) eapply concl_wrap; [exact (main_at f IHf U Hup Hc Hn)|reflexivity|..].
      * cbn [inv]. auto.
      * cbn [quiet]. auto.
    + (* p_apply_yield *) destruct (concl_sub _ _ _ _ (main_at f IHf B Hs I I)) as [J1 _]. apply concl_same; auto. cbn [inv]. auto.
    + (* p_apply_dry *) apply (main_at f IHf K); auto. cbn [inv]. auto.
Qed.

Theorem main_both : forall f, Main f /\ MainS f.
Proof.
  induction f as [|f [A B]].
  - split; discriminate.
  - split; [apply main_step|apply case_snext]; assumption.
Qed.

Theorem main : forall f, Main f.
Proof. intros f. apply main_both. Qed.

(* the constructed state of a chain, as a function; the sub-chains that are never stepped in place (see `inv`)
   and the predicate of an `MAssert` are left as they are *)
Fixpoint reset (m : mach) : mach :=
  match m with
  | MLeaf => MLeaf
  | MNop up => MNop (reset up)
  | MDebug up => MDebug (reset up)
  | MConst up v => MConst (reset up) v
  | MBind up id => MBind (reset up) id
  | MRead up id => MRead (reset up) id
  | MUpread up id => MUpread (reset up) id
  | MLexClosure up blk n => MLexClosure (reset up) blk n
  | MAssert up p => MAssert (reset up) p
  | MMerge up brs file _ _ => MMerge (reset up) (map reset brs) (map (fun _ => None) file) O false
  | MOr up brs _ => MOr (reset up) (map (fun b => (reset (fst b), None)) brs) None
  | MCapture up inner => MCapture (reset up) inner
  | MSubx up inner keep _ _ => MSubx (reset up) (reset inner) keep None None
  | MIfElse up cnd thn els _ => MIfElse (reset up) cnd thn els None
  | MWord up w _ => MWord (reset up) w []
  | MClosure up inner plus _ _ _ _ => MClosure (reset up) (reset inner) plus None [] [] true
  | MApply up skip _ => MApply (reset up) skip None
  | MFormat up parts _ _ =>
    MFormat (reset up)
            (map (fun p => match p with PLit str => PLit str | POp inner _ _ => POp (reset inner) None None end) parts)
            None 0%N
  end.

Definition preset (p : part) : part :=
  match p with PLit str => PLit str | POp inner _ _ => POp (reset inner) None None end.

Lemma reset_format up parts oslot pos :
  reset (MFormat up parts oslot pos) = MFormat (reset up) (map preset parts) None 0%N.
Proof. reflexivity. Qed.

Lemma all_none_map_none (file : list (option stack)) : all_none file = true -> map (fun _ => None) file = file.
Proof.
  induction file as [|[x|] t IH]; cbn; intros H; [reflexivity|discriminate|]. f_equal. apply IH. exact H.
Qed.

Lemma hf_merge up brs file idx done : has_format (MMerge up brs file idx done) = has_format up || existsb has_format brs.
Proof. reflexivity. Qed.

Lemma hf_or up brs cur : has_format (MOr up brs cur) = has_format up || existsb (fun b => has_format (fst b)) brs.
Proof.
  cbn [has_format]. f_equal.
  apply (fix_anyb (fun (b : mach * option stack) r => let (x, _) := b in has_format x || r)). intros [x sl] b; reflexivity.
Qed.

(* not with a format op: `quiet` allows any position counter, `reset` sets it to 0 *)
Lemma quiet_reset m : quiet m -> has_format m = false -> reset m = m.
Proof.
  induction m using mach_ind'; try (intros _ F; discriminate F);
    try (cbn [quiet reset has_format]; intros Q F; f_equal; auto; fail).
  - (* MMerge *) rewrite quiet_merge, hf_merge, orb_false_iff, existsb_false. intros [Hu [Hb [Hf [-> [-> _]]]]] [F1 F2].
    cbn [reset]. f_equal; auto using all_none_map_none. apply map_fix. unfold all_quiet in Hb. rewrite Forall_forall in *. auto.
  - (* MOr *) rewrite quiet_or, hf_or, orb_false_iff, existsb_false. intros [Hu [Hb ->]] [F1 F2].
    cbn [reset]. f_equal; auto. apply map_fix. unfold all_quiet_or in Hb. rewrite Forall_forall in *.
    intros [x sl] Hx. destruct (Hb _ Hx) as [Q E]. cbn [fst snd] in *. subst sl. f_equal. exact (H _ Hx Q (F2 _ Hx)).
  - (* MCapture *) cbn [quiet reset has_format]. rewrite orb_false_iff. intros [Q1 Q2] [F1 F2]. f_equal. auto.
  - (* MClosure *) cbn [quiet reset has_format]. rewrite orb_false_iff. intros [Q1 [Q2 [-> [-> [-> ->]]]]] [F1 F2]. f_equal; auto.
  - (* MSubx *) cbn [quiet reset has_format]. rewrite orb_false_iff. intros [Q1 [Q2 [-> ->]]] [F1 F2]. f_equal; auto.
  - (* MIfElse *) cbn [quiet reset has_format]. rewrite !orb_false_iff. intros [Q1 [_ [_ [_ ->]]]] [[[F1 _] _] _]. f_equal. auto.
  - (* MWord *) cbn [quiet reset has_format]. intros [Q ->] F. f_equal. auto.
  - (* MApply *) cbn [quiet reset has_format]. intros [Q ->] F. f_equal. auto.
Qed.

Lemma hf_reset m : has_format (reset m) = has_format m.
Proof.
  induction m using mach_ind'; try (cbn [reset has_format]; congruence).
  - (* MMerge *) cbn [reset]. rewrite !hf_merge, IHm. f_equal. apply existsb_map_ext. exact H.
  - (* MOr *) cbn [reset]. rewrite !hf_or, IHm. f_equal. apply existsb_map_ext. exact H.
Qed.

(* a pull changes state only: the constructed chain underneath stays the same *)
Fixpoint csame (c c' : lctx) : Prop :=
  match c, c' with
  | LOrigin _, LOrigin _ => True
  | LTine _ f _ up uc, LTine _ f' _ up' uc' => reset up' = reset up /\ length f' = length f /\ csame uc uc'
  | _, _ => False
  end.
Lemma csame_refl c : csame c c.
Proof. induction c as [sl|i f d up uc IH]; cbn; auto. Qed.
Lemma csame_trans : forall a b c, csame a b -> csame b c -> csame a c.
Proof.
  induction a as [sl|i f d up uc IH]; intros [sl'|i' f' d' up' uc'] [sl''|i'' f'' d'' up'' uc'']; cbn; try tauto.
  intros [E1 [L1 S1]] [E2 [L2 S2]]. split; [congruence|]. split; [congruence|]. eapply IH; eauto.
Qed.

Definition MainR (f : nat) : Prop :=
  forall env m c s r m' c' s' e, inv m -> cinv c -> nodone c ->
    next f env m c s = Ret (r, m', c', s', e) -> reset m' = reset m /\ csame c c'.

Lemma map_set_nth_same {A B} (g : A -> B) x y l i : nth_error l i = Some y -> g x = g y -> map g (set_nth i x l) = map g l.
Proof. intros H E. rewrite map_set_nth, E. apply set_nth_same. rewrite nth_error_map, H. reflexivity. Qed.

(* this holds of any chain in any state, reachable or not *)
Definition Same (f : nat) : Prop :=
  forall env m c s r m' c' s' e, next f env m c s = Ret (r, m', c', s', e) -> reset m' = reset m /\ csame c c'.
Definition SameS (f : nat) : Prop :=
  forall env parts oslot s r parts' oslot' s' e,
    snext f env parts oslot s = Ret (r, parts', oslot', s', e) -> map preset parts' = map preset parts.

Lemma or_try_same f : Same f -> forall post pre i env stk s errs r brs' s' e',
  or_try (next f) env pre post i stk s errs = Ret (r, brs', s', e') ->
  map (fun b => (reset (fst b), @None stack)) brs' = map (fun b => (reset (fst b), None)) (pre ++ post).
Proof.
  intros IHr. induction post as [|[br sl0] post' IH]; intros pre i env stk s errs r brs' s' e' H; cbn [or_try] in H.
  - inversion H. rewrite app_nil_r. reflexivity.
  - destruct (next f env br (LOrigin (Some stk)) s) as [| | |[[[[rb br'] cb] sb] eb]] eqn:B; try discriminate.
    destruct (IHr _ _ _ _ _ _ _ _ _ B) as [R1 _]. destruct cb as [sl|]; [|destruct rb; discriminate]. destruct rb as [rs|].
    + inversion H. rewrite !map_app. cbn [map fst]. congruence.
    + rewrite (IH _ _ _ _ _ _ _ _ _ _ H), <- app_assoc, !map_app. cbn [map fst app]. congruence.
Qed.

Lemma same_step f : Same f -> SameS f -> Same (S f).
Proof.
  intros IHr IHrs env m c s r m' c' s' e H. apply next_S in H.
  (* the induction hypothesis for whichever premises the rule has; the new chain then differs from the old one
     in sub-chains with the same reset, and in state that reset forgets *)
  destruct m; destruct H; try (apply IHr in U; destruct U as [RU CU]); try (apply IHr in B; destruct B as [RB CB]);
    try (apply IHr in K; destruct K as [RK CK]); try apply IHrs in Sn; try apply (or_try_same f IHr) in T;
    rewrite ?reset_format in *; cbn [reset csame app] in *;
    try (split; [congruence|eauto using csame_refl, csame_trans]; fail).
  - (* p_tine_fill *) rewrite set_nth_length, map_length. auto.
  - (* p_tine_take *) rewrite set_nth_length. auto using csame_refl.
  - (* p_merge *) destruct CB as [Ru [Lf Rc]]. split; [|exact Rc]. rewrite (map_set_nth_same reset br' br), (map_const_length None file' file); congruence.
  - (* p_merge_end *) destruct CB as [Ru [Lf Rc]]. split; [|exact Rc]. rewrite (map_set_nth_same reset br' br), (map_const_length None file' file); congruence.
  - (* p_merge_next *) destruct CB as [Ru [Lf Rc]]. split; [|eauto using csame_trans].
    rewrite (map_set_nth_same reset br' br), (map_const_length None file' file) in RK; congruence.
  - (* p_or_more *) split; [|apply csame_refl]. rewrite (map_set_nth_same _ (br', sl') (br, sl)); cbn [fst]; congruence.
  - (* p_or_dry *) split; [|exact CK]. rewrite (map_set_nth_same _ (br', sl') (br, sl)) in RK; cbn [fst]; congruence.
Qed.

Lemma sameS_step f : Same f -> SameS f -> SameS (S f).
Proof.
  intros IHr IHrs env parts oslot s r parts' oslot' s' e H. apply snext_S in H.
  destruct H; try (apply IHr in B; destruct B as [RB _]); try apply IHrs in K; try apply IHrs in Sn; cbn [map preset] in *; congruence.
Qed.

Theorem next_same : forall f, Same f /\ SameS f.
Proof.
  induction f as [|f [A B]].
  - split; discriminate.
  - split; [apply same_step|apply sameS_step]; assumption.
Qed.

(* `next_same` needs none of the premises; `Proof using` keeps `Forall quiet blks` a premise of the theorem outside
   the section, beside `main`, as C01 states the two *)
Theorem mainR : forall f, MainR f.
Proof using blks_quiet. intros f env m c s r m' c' s' e _ _ _. apply next_same. Qed.

(* pulling a chain dry: the stacks it yields, and the state it is left in *)
Inductive drains (f : nat) (env : list value) : mach -> lctx -> store -> list stack -> mach -> lctx -> store -> Prop :=
| dr_done m c s m' c' s' e : next f env m c s = Ret (None, m', c', s', e) -> drains f env m c s [] m' c' s'
| dr_more m c s stk m1 c1 s1 e outs m' c' s' :
    next f env m c s = Ret (Some stk, m1, c1, s1, e) -> drains f env m1 c1 s1 outs m' c' s' ->
    drains f env m c s (stk :: outs) m' c' s'.

Theorem drained_is_pristine f env m c s outs m' c' s' :
  inv m -> cinv c -> nodone c -> drains f env m c s outs m' c' s' ->
  quiet m' /\ reset m' = reset m /\ cinv c' /\ shape c c' /\ cpost c' true.
Proof.
  intros Hm Hc Hn D. induction D as [m c s m' c' s' e H|m c s stk m1 c1 s1 e outs m' c' s' H D IH].
  - destruct (main f _ _ _ _ _ _ _ _ _ Hm Hc Hn H) as [I1 [I2 [I3 [I4 I5]]]].
    destruct (mainR f _ _ _ _ _ _ _ _ _ Hm Hc Hn H) as [R1 _]. repeat split; auto.
  - destruct (main f _ _ _ _ _ _ _ _ _ Hm Hc Hn H) as [I1 [I2 [I3 [I4 I5]]]].
    destruct (mainR f _ _ _ _ _ _ _ _ _ Hm Hc Hn H) as [R1 _].
    destruct (IH I1 I2 (cpost_false_nodone _ I4)) as [Q1 [Q2 [Q3 [Q4 Q5]]]].
    repeat split; auto; [congruence|eapply shape_trans; eauto].
Qed.

(* C01, engine side, every op: a chain that was pulled dry is in its constructed
   state again -- the same ops, every one of them pristine; the only thing that
   may differ from the chain as constructed is the position counter of a format
   op, which that op sets back when the next stack arrives (op_format::next) *)
Theorem engine_forgets_any f env m sl s outs m' c' s' :
  quiet m -> drains f env m (LOrigin sl) s outs m' c' s' ->
  quiet m' /\ reset m' = reset m /\ c' = LOrigin None.
Proof.
  intros Q D.
  destruct (drained_is_pristine f env m (LOrigin sl) s outs m' c' s' (quiet_inv _ Q) I I D) as [Q1 [Q2 [Q3 [Q4 Q5]]]].
  split; [exact Q1|]. split; [exact Q2|].
  destruct c' as [sl'|]; [|cbn in Q4; contradiction]. rewrite (Q5 eq_refl). reflexivity.
Qed.

(* without format ops: a chain that was pulled dry is literally the chain it was
   constructed as -- so what it does with the next input cannot depend on the
   inputs it has seen *)
Theorem engine_forgets f env m sl s outs m' c' s' :
  quiet m -> has_format m = false -> drains f env m (LOrigin sl) s outs m' c' s' -> m' = m /\ c' = LOrigin None.
Proof.
  intros Q F D. destruct (engine_forgets_any f env m sl s outs m' c' s' Q D) as [Q1 [Q2 Q3]].
  split; [|exact Q3].
  assert (has_format m' = false) as F' by (rewrite <- hf_reset, Q2, hf_reset; exact F).
  rewrite <- (quiet_reset m' Q1 F'), Q2. apply quiet_reset; assumption.
Qed.

(* hence of two inputs processed one after the other by the same chain, the
   second gives what it gives alone on the store the first left *)
Corollary engine_stream f env m a b s outsA mA cA sA outsB mB cB sB :
  quiet m -> has_format m = false ->
  drains f env m (LOrigin (Some a)) s outsA mA cA sA ->
  drains f env mA (LOrigin (Some b)) sA outsB mB cB sB ->
  drains f env m (LOrigin (Some b)) sA outsB mB cB sB /\ mB = m.
Proof.
  intros Q F DA DB. destruct (engine_forgets f env m _ s outsA mA cA sA Q F DA) as [-> _].
  split; [exact DB|]. apply (engine_forgets f env m _ sA outsB mB cB sB Q F DB).
Qed.

(* with format ops: the second input meets a pristine chain of the same ops *)
Corollary engine_stream_any f env m a b s outsA mA cA sA outsB mB cB sB :
  quiet m ->
  drains f env m (LOrigin (Some a)) s outsA mA cA sA ->
  drains f env mA (LOrigin (Some b)) sA outsB mB cB sB ->
  quiet mA /\ reset mA = reset m /\ quiet mB /\ reset mB = reset m.
Proof.
  intros Q DA DB. destruct (engine_forgets_any f env m _ s outsA mA cA sA Q DA) as [QA [RA _]].
  destruct (engine_forgets_any f env mA _ sA outsB mB cB sB QA DB) as [QB [RB _]].
  repeat split; auto. congruence.
Qed.
End Proofs.

Theorem quietb_quiet m : quietb m = true -> quiet m.
Proof.
  induction m using mach_ind'; cbn [quietb]; rewrite ?andb_true_iff; try (cbn [quiet]; tauto).
  - (* MFormat *) intros [[Q1 Q2] Q3]. apply quiet_format. split; [auto|]. split; [|destruct oslot; [discriminate|reflexivity]].
    rewrite (fix_allb (fun (p : part) b => match p with PLit _ => b | POp inner slot cur => quietb inner && is_none slot && is_none cur && b end)
               (fun p => match p with PLit _ => true | POp inner slot cur => quietb inner && is_none slot && is_none cur end)) in Q2
      by (intros [str|inner slot cur] b; reflexivity).
    rewrite forallb_forall in Q2. rewrite Forall_forall in *. intros [str|inner slot cur] Hin; [exact I|].
    specialize (Q2 _ Hin). rewrite !andb_true_iff in Q2. destruct Q2 as [[Q21 Q22] Q23].
    destruct slot; [discriminate|]. destruct cur; [discriminate|]. split; [exact (H _ Hin Q21)|auto].
  - (* MMerge *) intros [[[[[[Q1 Q2] Q3] Q4] Q5] Q6] Q7]. apply Nat.eqb_eq in Q4, Q6. apply negb_true_iff in Q5, Q7.
    apply quiet_merge. repeat split; auto; [|intros ->; discriminate].
    change (forallb quietb brs = true) in Q2. rewrite forallb_forall in Q2. unfold all_quiet. rewrite Forall_forall in *. auto.
  - (* MOr *) intros [[Q1 Q2] Q3]. apply quiet_or. split; [auto|]. split; [|destruct cur; [discriminate|reflexivity]].
    rewrite (fix_allb (fun (b : mach * option stack) r => let (x, sl) := b in quietb x && is_none sl && r) (fun b => quietb (fst b) && is_none (snd b))) in Q2
      by (intros [x sl] b; reflexivity).
    rewrite forallb_forall in Q2. unfold all_quiet_or. rewrite Forall_forall in *. intros [x sl] Hx.
    specialize (Q2 _ Hx). cbn [fst snd] in Q2. rewrite andb_true_iff in Q2. destruct Q2 as [Q21 Q22]. destruct sl; [discriminate|].
    split; [exact (H _ Hx Q21)|reflexivity].
  - (* MClosure *) intros [[[[[Q1 Q2] Q3] Q4] Q5] ->]. destruct slot; [discriminate|]. destruct seen; [|discriminate]. destruct stks; [|discriminate]. cbn [quiet]. auto 8.
  - (* MSubx *) intros [[[Q1 Q2] Q3] Q4]. destruct saved; [discriminate|]. destruct slot; [discriminate|]. cbn [quiet]. auto.
  - (* MIfElse *) intros [[[[Q1 Q2] Q3] Q4] Q5]. destruct active; [discriminate|]. cbn [quiet]. auto 6.
  - (* MWord *) intros [Q1 Q2]. destruct pending; [|discriminate]. cbn [quiet]. auto.
  - (* MApply *) intros [Q1 Q2]. destruct sub; [discriminate|]. cbn [quiet]. auto.
Qed.
