(* The uncapped twin (DenU.v) agrees with the specification evaluator wherever
   the latter finishes, and it, too, is monotone in fuel: both are the body of
   DenF.v, level by level. *)
From Coq Require Import List.
From Dwgrep Require Import Words Tree Den DenU DenF DenMono.
Section CapVsU.
  Variable P : params.
  Variable prog : tree.

  (* as in DenMono.den_le, by conversion: `seqU`, `bind_outsU`, `closure_loopU` are `seqF capU`,
     `bindF capU`, `loopF capU` (capU is constantly false) *)
  Theorem den_le_denU : forall f t env stk, rle (den P prog f t env stk) (denU P prog f t env stk).
  Proof.
    intros f.
    exact (proj1 (tower_ble (fun r => r = DFuel) eq_refl ltac:(discriminate) capD capU ltac:(discriminate) P (find_block prog)
             (den P prog) (denU P prog) (peval P prog) (pevalU P prog) (fun _ _ _ => eq_refl) (fun _ _ _ => eq_refl)
             (den_S P prog) (peval_S P prog) (denU_S P prog) (pevalU_S P prog) f f (le_n f))).
  Qed.

  Theorem denU_le f g : f <= g ->
    (forall t env stk, rle (denU P prog f t env stk) (denU P prog g t env stk)) /\
    (forall p env stk, ple (pevalU P prog f p env stk) (pevalU P prog g p env stk)).
  Proof.
    exact (tower_ble (fun r => r = DFuel) eq_refl ltac:(discriminate) capU capU (fun _ h => h) P (find_block prog)
             (denU P prog) (denU P prog) (pevalU P prog) (pevalU P prog) (fun _ _ _ => eq_refl) (fun _ _ _ => eq_refl)
             (denU_S P prog) (pevalU_S P prog) (denU_S P prog) (pevalU_S P prog) f g).
  Qed.

  Theorem denU_mono : forall f g t env stk, f <= g ->
    denU P prog f t env stk <> DFuel -> denU P prog g t env stk = denU P prog f t env stk.
  Proof.
    intros f g t env stk L N. destruct (proj1 (denU_le f g L) t env stk) as [E|E]; [contradiction|symmetry; exact E].
  Qed.
End CapVsU.
