(* More fuel never changes a result of the specification: if the evaluator of
   Den.v finishes with some amount of fuel, it gives the same answer with any
   larger amount.  (DFuel - "gave up" - is the only answer that may change.)
   An instance of what DenF.v proves of the body (tower_ble). *)
From Coq Require Import Lia.
From Dwgrep Require Import Words Tree Den DenF.
Definition rle (r1 r2 : dres) : Prop := r1 = DFuel \/ r1 = r2.

Lemma rle_fuel r : rle DFuel r.
Proof. left. reflexivity. Qed.
Definition ple : (pres * list soft) + dres -> (pres * list soft) + dres -> Prop := pble (fun r => r = DFuel).

Section Mono.
  Variable P : params.
  Variable prog : tree.

  (* tower_ble applies as it stands: by conversion `seq`, `bind_outs`, `closure_loop` are `seqF capD`,
     `bindF capD`, `loopF capD` and `rle` is `ble (fun r => r = DFuel)`; den_S, peval_S (DenF.v) are computation. *)
  Theorem den_le f g : f <= g ->
    (forall t env stk, rle (den P prog f t env stk) (den P prog g t env stk)) /\
    (forall p env stk, ple (peval P prog f p env stk) (peval P prog g p env stk)).
  Proof.
    exact (tower_ble (fun r => r = DFuel) eq_refl ltac:(discriminate) capD capD (fun _ h => h) P (find_block prog)
             (den P prog) (den P prog) (peval P prog) (peval P prog) (fun _ _ _ => eq_refl) (fun _ _ _ => eq_refl)
             (den_S P prog) (peval_S P prog) (den_S P prog) (peval_S P prog) f g).
  Qed.

  Theorem den_mono : forall f g t env stk, f <= g ->
    den P prog f t env stk <> DFuel -> den P prog g t env stk = den P prog f t env stk.
  Proof.
    intros f g t env stk L N. destruct (proj1 (den_le f g L) t env stk) as [E|E]; [contradiction|symmetry; exact E].
  Qed.
End Mono.

Definition sof (r1 r2 : dres) : Prop := r1 = DFuel \/ r2 = DFuel \/ r1 = r2.

Lemma sof_below x y x' y' : rle x x' -> rle y y' -> sof x' y' -> sof x y.
Proof. unfold sof. intros [-> | ->] [-> | ->] H; auto. Qed.

Theorem agree_any_fuel P prog t1 t2 a b :
  (forall f env stk, sof (den P prog (a + f) t1 env stk) (den P prog (b + f) t2 env stk)) ->
  forall f1 f2 env stk, sof (den P prog f1 t1 env stk) (den P prog f2 t2 env stk).
Proof.
  intros H f1 f2 env stk.
  apply (sof_below _ _ (den P prog (a + Nat.max f1 f2) t1 env stk) (den P prog (b + Nat.max f1 f2) t2 env stk)).
  - apply den_le. lia.
  - apply den_le. lia.
  - apply H.
Qed.
