(* C10 on the engine model: every stack op_tr_closure (MClosure) yields is new
   with respect to its seen-set and is put on it - on the seen-set as it was, or
   emptied; when the op reports the end the seen-set is empty. *)
From Coq Require Import List.
From Dwgrep Require Import Value Words Engine EngineProofs.
Import ListNotations.

Section ClosureEngine.
Variable P : params.
Variable blks : list mach.
Notation next := (next P blks).

Fixpoint distinct (l : list stack) : Prop :=
  match l with [] => True | x :: t => seen_mem x t = false /\ distinct t end.

Theorem closure_yield_is_fresh : forall f env up inner plus slot seen stks drained c s stk m' c' s' e,
  next f env (MClosure up inner plus slot seen stks drained) c s = Ret (Some stk, m', c', s', e) ->
  exists up' inner' sl' seen0 stks' dr',
    m' = MClosure up' inner' plus sl' (stk :: seen0) stks' dr' /\
    seen_mem stk seen0 = false /\ (seen0 = seen \/ seen0 = []).
Proof.
  induction f as [|f IH]; intros env up inner plus slot seen stks drained c s stk m' c' s' e H; [discriminate|].
  apply next_S in H. inversion H; subst;
    (* a stack that is skipped, the end of a round, the next stack of the round, the next input of `+` *)
    try (destruct (IH _ _ _ _ _ _ _ _ _ _ _ _ _ _ _ K) as (u1 & i1 & sl1 & seen0 & st1 & d1 & E1 & E2 & E3); exists u1, i1, sl1, seen0, st1, d1).
  - (* p_closure_seen *) auto.
  - (* p_closure_yield *) eexists _, _, _, seen, _, _. auto.
  - (* p_closure_dry *) auto.
  - (* p_closure_send *) auto.
  - (* p_closure_plus: the seen-set has been cleared *) split; [exact E1|]. split; [exact E2|]. right. destruct E3; assumption.
  - (* p_closure_star *) eexists _, _, _, [], _, _. auto.
Qed.

(* hence a pull that yields keeps the seen-set - the stacks yielded for the
   current input, newest first - free of equal stacks, and puts what it yielded
   at its head *)
Corollary closure_seen_distinct : forall f env up inner plus slot seen stks drained c s stk m' c' s' e,
  distinct seen ->
  next f env (MClosure up inner plus slot seen stks drained) c s = Ret (Some stk, m', c', s', e) ->
  exists up' inner' sl' seen' stks' dr', m' = MClosure up' inner' plus sl' seen' stks' dr' /\ distinct seen' /\ hd_error seen' = Some stk.
Proof.
  intros f env up inner plus slot seen stks drained c s stk m' c' s' e D H.
  destruct (closure_yield_is_fresh _ _ _ _ _ _ _ _ _ _ _ _ _ _ _ _ H) as (u1 & i1 & sl1 & seen0 & st1 & d1 & E1 & E2 & E3).
  exists u1, i1, sl1, (stk :: seen0), st1, d1. split; [exact E1|]. split; [|reflexivity].
  split; [exact E2|]. destruct E3 as [->| ->]; [exact D|exact I].
Qed.

(* the op reports the end with an empty seen-set, no stack pending, and marked
   drained *)
Theorem closure_end_is_clean : forall f env up inner plus slot seen stks drained c s m' c' s' e,
  next f env (MClosure up inner plus slot seen stks drained) c s = Ret (None, m', c', s', e) ->
  exists up' inner' sl', m' = MClosure up' inner' plus sl' [] [] true.
Proof.
  induction f as [|f IH]; intros env up inner plus slot seen stks drained c s m' c' s' e H; [discriminate|].
  apply next_S in H. inversion H; try (eapply IH; exact K). eauto.
Qed.
End ClosureEngine.
