(* About tree::simplify (Simplify.v), short of its preserving meaning, which is
   SimplifyCorrect.v: the one rewrite step that is an equation on Den.den, the
   shape after flattening, and `node_fix_rel`, by which a statement about
   node_fix comes down to its five rewrite steps. *)
From Coq Require Import List Lia.
From Dwgrep Require Import Words Tree Den Simplify.
Import ListNotations.

Definition same_or_fuel (r1 r2 : dres) : Prop := r1 = DFuel \/ r2 = DFuel \/ r1 = r2.

Section Steps.
  Variable P : params.
  Variable prog : tree.

  (* "Change (FORMAT (STR)) to (STR)" *)
  Theorem format_single_str f s env stk :
    den P prog (S (S f)) (TFormat [TStr s]) env stk = den P prog (S f) (TStr s) env stk.
  Proof. cbn. rewrite app_nil_r. reflexivity. Qed.
End Steps.

Lemma flatten_cat_no_cat : forall f l,
  (forall c, In c l -> depth c <= f) -> Forall (fun c => is_cat c = false) (flatten_cat f l).
Proof.
  induction f as [|f IH]; intros l H.
  - cbn. apply Forall_forall. intros c Hc. specialize (H c Hc). destruct c; cbn in *; auto; lia.
  - cbn [flatten_cat]. apply Forall_forall. intros c Hc. apply in_flat_map in Hc.
    destruct Hc as (x & Hx & Hc). specialize (H x Hx).
    destruct x; try (destruct Hc as [<-|[]]; reflexivity).
    assert (Hl : forall c', In c' l0 -> depth c' <= f).
    { intros c' Hc'. cbn [depth] in H.
      assert (depth c' <= (fix dl (l : list tree) : nat := match l with [] => 0 | x :: r => Nat.max (depth x) (dl r) end) l0).
      { clear - Hc'. induction l0 as [|y l0 IHl]; [destruct Hc'|]. destruct Hc' as [<-|Hc']; [lia|]. specialize (IHl Hc'). lia. }
      lia. }
    specialize (IH l0 Hl). rewrite Forall_forall in IH. auto.
Qed.

(* node_fix only composes the five rewrite steps of tree::simplify: a reflexive,
   transitive relation that holds across each of them holds across node_fix *)
Lemma node_fix_rel (R : tree -> tree -> Prop) :
  (forall t, R t t) -> (forall a b c, R a b -> R b c -> R a c) ->
  (forall d l, R (TCat l) (TCat (flatten_cat d l))) ->
  (forall d l, R (TAlt l) (TAlt (flatten_alt d l))) ->
  (forall c, R (TCat [c]) c) ->
  (forall s, R (TFormat [TStr s]) (TStr s)) ->
  (forall l, R (TCat l) (TCat (filter (fun c => negb (is_nop c)) l))) ->
  forall n t, R t (node_fix n t).
Proof.
  intros Rrefl Rtrans Hcat Halt Hone Hstr Hnop. induction n as [|n IH]; intros t; [apply Rrefl|].
  cbn [node_fix].
  set (t1 := match t with
             | TCat l => TCat (flatten_cat (depth t) l)
             | TAlt l => TAlt (flatten_alt (depth t) l)
             | o => o
             end).
  apply Rtrans with t1; [subst t1; destruct t; auto|].
  destruct t1; auto.
  - destruct l as [|c [|c2 l2]]; [apply Rrefl|eauto|].
    destruct (existsb is_nop (c :: c2 :: l2)); eauto.
  - destruct l as [|[] [|p1 l1]]; auto.
Qed.
