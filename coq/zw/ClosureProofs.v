(* The closure operators of the specification: each distinct stack at most
   once (closure_no_dup), only reachable stacks (closure_sound), every reachable
   stack when the evaluation finishes (closure_closed, star_complete).  All three
   are inductions on a finished run of the loop (`loop_run`), which says what one
   expansion contributes and forgets how `mark` computes it. *)
From Coq Require Import List Bool.
From Dwgrep Require Import Value ValueProofs Engine Den DenProofs.
Import ListNotations.

Fixpoint fresh_wrt (seen : list stack) (l : list stack) : Prop :=
  match l with
  | [] => True
  | x :: t => seen_mem x seen = false /\ fresh_wrt (x :: seen) t
  end.

Lemma fresh_wrt_app seen a : forall b,
  fresh_wrt seen (a ++ b) <-> fresh_wrt seen a /\ fresh_wrt (rev a ++ seen) b.
Proof.
  revert seen. induction a as [|x a IH]; intros seen b; cbn [app fresh_wrt rev].
  - tauto.
  - rewrite IH. rewrite <- app_assoc. tauto.
Qed.

Lemma outs_of_app a b : outs_of (a ++ b) = outs_of a ++ outs_of b.
Proof. apply flat_map_app. Qed.

Section Closure.
  Variable step : stack -> dres.
  Variable env : denv.

  Definition succ (a b : stack) : Prop := exists evs ab, step a = DOk evs ab /\ In b (outs_of evs).

  Definition expands (s : stack) (seen : list stack) (out : list dev) : Prop :=
    fresh_wrt seen (outs_of out) /\
    (forall x, In x (outs_of out) -> succ s x) /\
    (forall b, succ s b -> seen_mem b (rev (outs_of out) ++ seen) = true \/ In b (outs_of out)).

  Lemma mark_spec evs : forall seen out fresh seen',
    mark env evs seen = (out, fresh, seen') ->
    seen' = rev fresh ++ seen /\ outs_of out = fresh /\ fresh_wrt seen fresh /\
    (forall x, In x fresh -> In x (outs_of evs)) /\
    (forall b, In b (outs_of evs) -> seen_mem b seen' = true \/ In b fresh).
  Proof.
    induction evs as [|[s e|k] evs IH]; intros seen out fresh seen' H; cbn [mark] in H.
    - inversion H. cbn. tauto.
    - destruct (seen_mem s seen) eqn:M.
      + destruct (IH _ _ _ _ H) as (B & A & C & D & E). repeat split; auto.
        * right. auto.
        * intros b [<-|Hb]; [|auto]. left. rewrite B. unfold seen_mem. rewrite existsb_app. apply orb_true_iff. auto.
      + destruct (mark env evs (s :: seen)) as [[o fr] sn] eqn:Em. inversion H; subst.
        destruct (IH _ _ _ _ Em) as (B & A & C & D & E). cbn [rev]. rewrite <- app_assoc. repeat split; auto.
        * cbn. f_equal. exact A.
        * intros x [<-|Hx]; cbn; auto.
        * intros b [<-|Hb]; [right; left; reflexivity|]. destruct (E b Hb); [left; congruence|right; right; assumption].
    - destruct (mark env evs seen) as [[o fr] sn] eqn:Em. inversion H; subst.
      destruct (IH _ _ _ _ Em) as (B & A & C & D & E). auto.
  Qed.

  (* a run of the loop that finished: work list, seen-set, events, ended by an exception? *)
  Inductive loop_run : list stack -> list stack -> list dev -> bool -> Prop :=
  | lr_done seen : loop_run [] seen [] false
  | lr_abort s rest seen out : expands s seen out -> loop_run (s :: rest) seen out true
  | lr_step s rest seen out evs ab :
      expands s seen out -> loop_run (rev (outs_of out) ++ rest) (rev (outs_of out) ++ seen) evs ab ->
      loop_run (s :: rest) seen (out ++ evs) ab.

  Lemma closure_loop_run : forall g work seen evs ab,
    closure_loop step env g work seen = DOk evs ab -> loop_run work seen evs ab.
  Proof.
    induction g as [|g IH]; intros work seen evs ab H; cbn [closure_loop] in H; [discriminate|].
    destruct work as [|s rest]; [inversion H; constructor|].
    destruct (step s) as [| |evs0 ab0] eqn:ST; try discriminate.
    destruct (mark env evs0 seen) as [[out fresh] seen'] eqn:M.
    destruct (mark_spec _ _ _ _ _ M) as (-> & <- & C & D & E).
    assert (expands s seen out) as X.
    { repeat split; auto.
      - exists evs0, ab0. auto.
      - intros b (evs1 & ab1 & ST1 & Hb). rewrite ST in ST1. inversion ST1; subst. auto. }
    destruct ab0.
    - inversion H; subst. constructor. exact X.
    - apply seq_ok_inv in H. destruct H as (evs2 & L & ->). constructor; [exact X|]. apply (IH _ _ _ _ L).
  Qed.

  Theorem closure_no_dup : forall g work seen evs ab,
    closure_loop step env g work seen = DOk evs ab -> fresh_wrt seen (outs_of evs).
  Proof.
    intros g work seen evs ab H. apply closure_loop_run in H.
    induction H as [seen|s rest seen out (C & _)|s rest seen out evs ab (C & _) _ IH].
    - exact I.
    - exact C.
    - rewrite outs_of_app. apply fresh_wrt_app. auto.
  Qed.

  Inductive reach_plus : stack -> stack -> Prop :=
  | rp_one a b : succ a b -> reach_plus a b
  | rp_step a b c : succ a b -> reach_plus b c -> reach_plus a c.

  Theorem closure_sound : forall g work seen evs ab,
    closure_loop step env g work seen = DOk evs ab ->
    forall x, In x (outs_of evs) -> exists w, In w work /\ reach_plus w x.
  Proof.
    intros g work seen evs ab H. apply closure_loop_run in H.
    induction H as [seen|s rest seen out (_ & D & _)|s rest seen out evs ab (_ & D & _) _ IH]; intros x Hx.
    - destruct Hx.
    - exists s. split; [left; auto|]. apply rp_one. auto.
    - rewrite outs_of_app in Hx. apply in_app_or in Hx. destruct Hx as [Hx|Hx].
      + exists s. split; [left; auto|]. apply rp_one. auto.
      + destruct (IH x Hx) as (w & Hw & R).
        apply in_app_or in Hw. destruct Hw as [Hw|Hw].
        * apply in_rev in Hw. exists s. split; [left; auto|]. eapply rp_step; eauto.
        * exists w. split; [right; auto|]. exact R.
  Qed.
End Closure.

Section Complete.
  Variable step : stack -> dres.
  Variable env : denv.

  Notation "a ~~ b" := (stack_eqb a b = true) (at level 70).
  Definition eq_in (x : stack) (l : list stack) : Prop := seen_mem x l = true.

  Variable dom : stack -> Prop.
  Hypothesis Hrefl : forall a, dom a -> a ~~ a.
  Hypothesis Hdom : forall a b, dom a -> succ step a b -> dom b.
  Hypothesis Hresp : forall a a' b, dom a -> dom a' -> a ~~ a' -> succ step a b ->
                                    exists b', succ step a' b' /\ b ~~ b'.

  Lemma eq_in_app x a b : eq_in x (a ++ b) <-> eq_in x a \/ eq_in x b.
  Proof. unfold eq_in, seen_mem. rewrite existsb_app, orb_true_iff. tauto. Qed.

  Lemma eq_in_iff x l : eq_in x l <-> exists y, In y l /\ x ~~ y.
  Proof. unfold eq_in, seen_mem. rewrite existsb_exists. tauto. Qed.

  Lemma eq_in_rev x l : eq_in x (rev l) <-> eq_in x l.
  Proof.
    rewrite !eq_in_iff. split; intros (y & Hy & E); exists y; split; auto.
    - apply in_rev; auto.
    - apply in_rev in Hy; auto.
  Qed.

  Lemma eq_in_left x y l : x ~~ y -> eq_in y l -> eq_in x l.
  Proof. rewrite !eq_in_iff. intros E (z & Hz & E'). exists z. split; [exact Hz|]. exact (stack_eqb_trans _ _ _ E E'). Qed.

  Lemma eq_in_self x l : dom x -> In x l -> eq_in x l.
  Proof. intros D H. apply eq_in_iff. exists x. auto. Qed.

  (* The invariant of the loop.  The work list is part of the seen-set, and every
     stack of the seen-set is either still in the work list or expanded: what the
     body makes of it is in the seen-set (up to ==). *)
  Definition loop_inv (work seen : list stack) : Prop :=
    incl work seen /\
    forall a, In a seen -> dom a /\ (In a work \/ forall b, succ step a b -> eq_in b seen).

  Lemma expands_inv s rest seen out :
    expands step s seen out -> loop_inv (s :: rest) seen ->
    loop_inv (rev (outs_of out) ++ rest) (rev (outs_of out) ++ seen).
  Proof.
    intros (_ & D & E) [Hw Hs]. apply incl_cons_inv in Hw. destruct Hw as [Hs0 Hw].
    destruct (Hs s Hs0) as [Ds _].
    split; [apply incl_app_app; [apply incl_refl|exact Hw]|].
    intros a Ha. apply in_app_or in Ha. destruct Ha as [Ha|Ha].
    - (* a new stack: made of s, and in the work list *)
      split; [apply (Hdom s), D, in_rev, Ha; exact Ds|]. left. apply in_or_app. left. exact Ha.
    - destruct (Hs a Ha) as [Da [[<-|Hr]|Xa]]; (split; [exact Da|]).
      + (* s: expanded by this step *)
        right. intros b Sb. destruct (E b Sb) as [M|Hb]; [exact M|].
        apply eq_in_app. left. apply eq_in_rev, eq_in_self; [apply (Hdom s); assumption|exact Hb].
      + left. apply in_or_app. right. exact Hr.
      + right. intros b Sb. apply eq_in_app. right. apply Xa, Sb.
  Qed.

  Lemma run_inv work seen evs ab : loop_run step work seen evs ab -> ab = false ->
    loop_inv work seen -> loop_inv [] (rev (outs_of evs) ++ seen).
  Proof.
    induction 1 as [seen| |s rest seen out evs ab X _ IH]; intros Eab I; [exact I|discriminate|].
    rewrite outs_of_app, rev_app_distr, <- app_assoc. apply (IH Eab), (expands_inv _ _ _ _ X I).
  Qed.

  (* when the closure finishes, every stack of the seen-set it ends with - the
     one it started with and the yielded stacks - is expanded *)
  Theorem closure_closed g work seen evs :
    closure_loop step env g work seen = DOk evs false -> loop_inv work seen -> loop_inv [] (rev (outs_of evs) ++ seen).
  Proof. intros H. eapply run_inv; [eapply closure_loop_run; exact H|reflexivity]. Qed.

  Inductive reach_star : stack -> stack -> Prop :=
  | rs_refl a : reach_star a a
  | rs_step a b c : succ step a b -> reach_star b c -> reach_star a c.

  Lemma closed_reach F : loop_inv [] F -> forall a x, reach_star a x -> dom a -> eq_in a F -> eq_in x F.
  Proof.
    intros [_ I] a x R. induction R as [a|a b c S R IH]; intros Da Ma; [exact Ma|].
    apply IH; [apply (Hdom a); assumption|].
    apply eq_in_iff in Ma. destruct Ma as (y & Hy & E).
    destruct (I y Hy) as [Dy [[]|Xy]].
    destruct (Hresp a y b Da Dy E S) as (b' & S' & E').
    apply (eq_in_left b b'); [exact E'|apply Xy, S'].
  Qed.

  Theorem star_complete g stk evs :
    dom stk ->
    closure_loop step env g [stk] [stk] = DOk evs false ->
    forall x, reach_star stk x -> eq_in x (stk :: outs_of evs).
  Proof.
    intros Ds H x R.
    assert (loop_inv [stk] [stk]) as I0.
    { split; [apply incl_refl|]. intros a [<-|[]]. split; [exact Ds|]. left. left. reflexivity. }
    assert (eq_in x (rev (outs_of evs) ++ [stk])) as M.
    { apply (closed_reach _ (closure_closed _ _ _ _ H I0) stk x R Ds).
      apply eq_in_app. right. apply eq_in_self; [exact Ds|left; reflexivity]. }
    change (eq_in x ([stk] ++ outs_of evs)). rewrite eq_in_app in M |- *. rewrite eq_in_rev in M. tauto.
  Qed.
End Complete.
