(* An exhausted chain stays exhausted: pulling a chain that is in its
   constructed state when there is no input left (an empty origin slot; a
   branch of `,` whose copy of the current input is used up) yields nothing, no
   diagnostic, leaves chain and store as they were, and marks the `,` levels it
   went through as done.  Together with EngineProofs (pulled dry = pristine
   again) this gives: once a result set has reported the end, the next pull
   reports the end and leaves it as it found it, pristine on an empty origin. *)
From Coq Require Import List Lia.
From Dwgrep Require Import Words Engine EngineProofs.
Import ListNotations.

Section Starved.
Variable P : params.
Variable blks : list mach.
Notation next := (next P blks).
Notation snext := (snext P blks).

(* nothing left to hand out, at every level of `,` the leaf is below *)
Fixpoint dry (c : lctx) : Prop :=
  match c with
  | LOrigin sl => sl = None
  | LTine i file done up uc => done = false /\ all_none file = true /\ i < length file /\ quiet up /\ dry uc
  end.

(* ... and after the pull: every such level has seen its upstream run dry *)
Fixpoint dried (c : lctx) : Prop :=
  match c with
  | LOrigin sl => sl = None
  | LTine _ _ done _ uc => done = true /\ dried uc
  end.

Definition Starved (f : nat) : Prop :=
  forall env m c s r m' c' s' e, quiet m -> dry c ->
    next f env m c s = Ret (r, m', c', s', e) -> r = None /\ e = [] /\ dried c'.

(* the context after such a pull *)
Fixpoint mark_done (c : lctx) : lctx :=
  match c with
  | LOrigin sl => LOrigin sl
  | LTine i file _ up uc => LTine i file true up (mark_done uc)
  end.

Lemma dried_mark_done c : dry c -> dried (mark_done c).
Proof. induction c as [sl|i file done up uc IH]; cbn; [auto|]. intros (_ & _ & _ & _ & D). auto. Qed.

Definition Untouched (f : nat) : Prop :=
  forall env m c s r m' c' s' e, quiet m -> dry c ->
    next f env m c s = Ret (r, m', c', s', e) -> r = None /\ e = [] /\ m' = m /\ s' = s /\ c' = mark_done c.

Lemma first_tine_dry (brs : list mach) file up c :
  all_none file = true -> length file = length brs -> brs <> [] -> quiet up -> dry c -> dry (LTine 0 file false up c).
Proof. intros AN Hl Hn Qu D. repeat split; auto. rewrite Hl. destruct brs; [congruence|cbn; lia]. Qed.

Lemma snext_idle : forall f env parts s r parts' oslot' s' e,
  Forall pquiet parts ->
  snext f env parts None s = Ret (r, parts', oslot', s', e) -> r = None /\ e = [] /\ s' = s /\ parts' = parts /\ oslot' = None.
Proof.
  induction f as [|f IH]; intros env parts s r parts' oslot' s' e Hp H; [discriminate|].
  apply snext_S in H. inversion H; subst; auto; inversion Hp as [|? ? Hop Hrest].
  - (* s_lit *) destruct (IH _ _ _ _ _ _ _ _ Hrest Sn) as [A _]. discriminate A.
  - (* s_lit_end *) destruct (IH _ _ _ _ _ _ _ _ Hrest Sn) as (_ & -> & -> & -> & ->). auto.
  - (* s_op_start *) destruct (IH _ _ _ _ _ _ _ _ Hrest Sn) as [A _]. discriminate A.
  - (* s_op_end *) destruct (IH _ _ _ _ _ _ _ _ Hrest Sn) as (_ & -> & -> & -> & ->). auto.
  - (* s_op_yield *) destruct Hop as (_ & _ & C). discriminate C.
  - (* s_op_dry *) destruct Hop as (_ & _ & C). discriminate C.
Qed.

(* every op in its constructed state first asks its upstream (`,`: its first
   branch, whose leaf asks the upstream): that says "nothing" and stays as it is,
   and so does the op *)
Lemma untouched_step f : Untouched f -> Untouched (S f).
Proof.
  intros IH env m c s r m' c' s' e Q D H. apply next_S in H. revert Q D.
  destruct m; destruct H; intros Q D;
    try (exfalso; cbn [quiet] in Q; decompose [and] Q; discriminate);
    try (match type of U with next _ _ ?up _ _ = _ => assert (quiet up) as Qu by (cbn [quiet] in Q; tauto) end;
         destruct (IH _ _ _ _ _ _ _ _ _ Qu D U) as (A & E); try discriminate A; destruct E as (-> & -> & -> & ->); auto; fail).
  (* `,`: the first branch is pulled, on a tine that has nothing to hand out *)
  8-10: apply quiet_merge in Q; destruct Q as [Qu [Qb [AN [-> [_ [Hl Hn]]]]]];
    pose proof (IH _ _ _ _ _ _ _ _ _ (proj1 (all_quiet_nth brs) Qb _ _ G1) (first_tine_dry _ _ _ _ AN Hl Hn Qu D) B) as J.
  - (* p_origin *) cbn in D. subst. auto.
  - (* p_tine_done *) destruct D as [F _]. discriminate F.
  - (* p_tine_fill *) destruct D as [_ [_ [_ [Qup Duc]]]]. destruct (IH _ _ _ _ _ _ _ _ _ Qup Duc U) as [A _]. discriminate A.
  - (* p_tine_end *) destruct D as [_ [_ [_ [Qup Duc]]]]. destruct (IH _ _ _ _ _ _ _ _ _ Qup Duc U) as (_ & -> & -> & -> & ->). auto.
  - (* p_tine_take *) destruct D as [_ [AN _]]. congruence.
  - (* p_format *) apply quiet_format in Q. destruct Q as [_ [Qp ->]]. destruct (snext_idle _ _ _ _ _ _ _ _ _ Qp Sn) as [A _]. discriminate A.
  - (* p_format_end *) apply quiet_format in Q. destruct Q as [Qu [Qp ->]]. destruct (snext_idle _ _ _ _ _ _ _ _ _ Qp Sn) as (_ & -> & -> & -> & ->).
    destruct (IH _ _ _ _ _ _ _ _ _ Qu D U) as (_ & -> & -> & -> & ->). auto.
  - (* p_merge *) destruct J as [A _]. discriminate A.
  - (* p_merge_end: the branch and the tine come back as they went *)
    destruct J as (_ & -> & -> & -> & E). injection E as -> -> -> ->. rewrite (set_nth_same _ _ _ G1). auto.
  - (* p_merge_next *) destruct J as (_ & _ & _ & _ & E). discriminate E.
  - (* p_closure_end, the one rule that writes at the end: `seen` is cleared, and was empty *)
    destruct Q as (Qu & _ & _ & -> & _). destruct (IH _ _ _ _ _ _ _ _ _ Qu D U) as (_ & -> & -> & -> & ->). auto.
Qed.

Theorem untouched : forall f, Untouched f.
Proof. induction f as [|f IH]; [discriminate|apply untouched_step; exact IH]. Qed.

Theorem starved : forall f, Starved f.
Proof.
  intros f env m c s r m' c' s' e Q D H. destruct (untouched f env m c s r m' c' s' e Q D H) as (A & B & _ & _ & ->).
  auto using dried_mark_done.
Qed.

(* the end is final: a pristine chain with an empty origin yields nothing,
   silently, and is left pristine with an empty origin *)
Theorem end_is_final : Forall quiet blks -> forall f env m s r m' c' s' e,
  quiet m -> next f env m (LOrigin None) s = Ret (r, m', c', s', e) ->
  r = None /\ e = [] /\ quiet m' /\ reset m' = reset m /\ c' = LOrigin None.
Proof.
  intros _ f env m s r m' c' s' e Q H.
  destruct (untouched f env m (LOrigin None) s r m' c' s' e Q eq_refl H) as (A & B & -> & _ & C). auto.
Qed.

(* so once a result set has reported the end, the next pull reports the end, and
   leaves the chain pristine on an empty origin for the pull after it *)
Corollary after_the_end : Forall quiet blks -> forall f env m sl s outs m1 c1 s1,
  quiet m -> drains P blks f env m (LOrigin sl) s outs m1 c1 s1 ->
  forall g s2 r m2 c2 s3 e, next g env m1 c1 s2 = Ret (r, m2, c2, s3, e) ->
  r = None /\ e = [] /\ quiet m2 /\ reset m2 = reset m /\ c2 = LOrigin None.
Proof.
  intros Qb f env m sl s outs m1 c1 s1 Q D g s2 r m2 c2 s3 e H.
  destruct (engine_forgets_any P blks Qb f env m sl s outs m1 c1 s1 Q D) as [Q1 [R1 ->]].
  destruct (end_is_final Qb g env m1 s2 r m2 c2 s3 e Q1 H) as [A [B [C [D' E']]]].
  repeat split; auto. congruence.
Qed.
End Starved.
