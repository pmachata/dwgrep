(* C04 on the engine model: the ops behind `?(E)` / `!(E)` / assertion words
   (op_assert), `let` and infix operands (op_subx) and `[E]` (op_capture) make
   up no stack of their own: what an assertion yields, what a sub-expression
   context yields below the kept values and what a capture yields below its one
   sequence is a stack that some pull with less fuel returned (`pulled_before`;
   of which chain, the statements do not say) or, for op_subx, one the op held
   as saved. *)
From Coq Require Import NArith List Arith Lia.
From Dwgrep Require Import Value Words Engine EngineProofs.
Section Neutral.
Variable P : params.
Variable blks : list mach.
Notation next := (next P blks).

(* `stk` is what some pull with less fuel returned, leaving the chain `up1` and the context `c1`; the chain
   that was pulled is existential, not tied to any op's upstream *)
Definition pulled_before (f : nat) (env : list value) (stk : stack) (up1 : mach) (c1 : lctx) : Prop :=
  exists f0 up0 c0 s0 s1 e1, f0 < f /\ next f0 env up0 c0 s0 = Ret (Some stk, up1, c1, s1, e1).

Lemma pulled_before_mono f g env stk up1 c1 : f <= g -> pulled_before f env stk up1 c1 -> pulled_before g env stk up1 c1.
Proof. intros L (f0 & up0 & c0 & s0 & s1 & e1 & Lt & E). exists f0, up0, c0, s0, s1, e1. split; [lia|exact E]. Qed.

Lemma pulled_now f env up c s stk up1 c1 s1 e1 : next f env up c s = Ret (Some stk, up1, c1, s1, e1) -> pulled_before (S f) env stk up1 c1.
Proof. intros E. exists f, up, c, s, s1, e1. split; [lia|exact E]. Qed.

(* op_assert: whatever comes out was returned, as it is, by some pull with less
   fuel; the op's new state wraps the chain that pull left, and `c'` is the
   context it left *)
Theorem assert_forwards : forall f env up p c s stk m' c' s' e,
  next f env (MAssert up p) c s = Ret (Some stk, m', c', s', e) ->
  exists up1, m' = MAssert up1 p /\ pulled_before f env stk up1 c'.
Proof.
  induction f as [|f IH]; intros env up p c s stk m' c' s' e H; [discriminate|].
  apply next_S in H. inversion H.
  - (* p_assert_yes *) eexists. split; [reflexivity|]. exact (pulled_now _ _ _ _ _ _ _ _ _ _ U).
  - (* p_assert_skip *) destruct (IH _ _ _ _ _ _ _ _ _ _ K) as [up1 [E1 E2]]. exists up1. split; [exact E1|].
    eapply pulled_before_mono; [|exact E2]. lia.
Qed.

(* op_subx (`let` bodies, both operands of an infix assertion): what comes out
   is `keep` values on top of a stack that the op held as saved or that some
   pull with less fuel returned *)
Theorem subx_keeps : forall f env up inner keep saved slot c s stk m' c' s' e,
  next f env (MSubx up inner keep saved slot) c s = Ret (Some stk, m', c', s', e) ->
  exists sv sub, stk = firstn keep sub ++ sv /\ keep <= length sub /\
    (saved = Some sv \/ exists up1 c1, pulled_before f env sv up1 c1).
Proof.
  induction f as [|f IH]; intros env up inner keep saved slot c s stk m' c' s' e H; [discriminate|].
  apply next_S in H. inversion H; subst.
  - (* p_subx_save: the stack now saved is the one the upstream has just yielded *)
    destruct (IH _ _ _ _ _ _ _ _ _ _ _ _ _ K) as (sv & sub & E1 & E2 & [E3|(up1 & c1 & E3)]); exists sv, sub; (split; [exact E1|split; [exact E2|right]]).
    + inversion E3; subst. eexists _, _. exact (pulled_now _ _ _ _ _ _ _ _ _ _ U).
    + exists up1, c1. eapply pulled_before_mono; [|exact E3]. lia.
  - (* p_subx_yield *) unfold subx_result in G1. destruct (Nat.leb keep (length r)) eqn:L; [|discriminate]. inversion G1.
    exists sv, r. split; [reflexivity|]. split; [apply Nat.leb_le; exact L|]. left. reflexivity.
  - (* p_subx_dry *) destruct (IH _ _ _ _ _ _ _ _ _ _ _ _ _ K) as (sv0 & sub & E1 & E2 & [E3|(up1 & c1 & E3)]); [discriminate|].
    exists sv0, sub. split; [exact E1|]. split; [exact E2|]. right. exists up1, c1. eapply pulled_before_mono; [|exact E3]. lia.
Qed.

(* op_capture (`[E]`): what comes out is one sequence on top of a stack that
   some pull with less fuel returned; the op's new state wraps the chain that
   pull left *)
Theorem capture_forwards : forall f env up inner c s stk m' c' s' e,
  next f env (MCapture up inner) c s = Ret (Some stk, m', c', s', e) ->
  exists vs below up1, stk = VSeq vs 0%N :: below /\ m' = MCapture up1 inner /\ pulled_before f env below up1 c'.
Proof.
  intros [|f] env up inner c s stk m' c' s' e H; [discriminate|].
  apply next_S in H. inversion H. eexists _, _, _. split; [reflexivity|]. split; [reflexivity|].
  exact (pulled_now _ _ _ _ _ _ _ _ _ _ U).
Qed.
End Neutral.
