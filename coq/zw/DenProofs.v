From Coq Require Import ZArith List Lia.
From Dwgrep Require Import Value Words Tree Engine Build Den DenF.
Import ListNotations.

Definition only_yields (r : dres) (stk : stack) (env : denv) : Prop :=
  match r with
  | DOk evs _ => forall s e, In (DOut s e) evs -> s = stk /\ e = env
  | _ => True
  end.

Lemma in_softs s e l : ~ In (DOut s e) (softs l).
Proof. intros H. apply in_map_iff in H. destruct H as (k & E & _). discriminate. Qed.

(* the form in which `den` gives the events of an assertion and of ?word / !word *)
Lemma yes_only_yields errs r stk env :
  only_yields (ok (softs errs ++ match r with PYes => [DOut stk env] | _ => [] end)) stk env.
Proof.
  intros s e Hin. apply in_app_or in Hin. destruct Hin as [Hin|Hin]; [destruct (in_softs _ _ _ Hin)|].
  destruct r; try contradiction. destruct Hin as [E|[]]. inversion E; auto.
Qed.

(* when a predicate evaluation fails as a whole, it has yielded nothing *)
Lemma peval_inr_no_out P prog f : forall p env stk evs ab,
  peval P prog f p env stk = inr (DOk evs ab) -> forall s e, ~ In (DOut s e) evs.
Proof.
  induction f as [|f IH]; intros p env stk evs ab H; [cbn in H; discriminate|].
  rewrite peval_S in H. destruct p; cbn [pevalF] in H; try discriminate.
  - (* and: the failure is that of one of the two *)
    destruct (pboth_inr _ _ _ _ H) as [E|E]; exact (IH _ _ _ _ _ E).
  - (* or *)
    destruct (pboth_inr _ _ _ _ H) as [E|E]; exact (IH _ _ _ _ _ E).
  - destruct (peval P prog f p env stk) as [[ra ea]|o] eqn:E1; [discriminate|].
    inversion H; subst. eapply IH; eauto.
  - destruct (den P prog f p env stk) as [| |evs0 ab0]; try discriminate.
    destruct (upto_first evs0) as [pre [x|]]; [discriminate|].
    destruct ab0; [|discriminate]. inversion H. intros s e. apply in_softs.
  - destruct b; try discriminate. destruct stk; try discriminate.
    inversion H. intros s e [].
Qed.

Theorem assert_keeps_stack P prog f p env stk :
  only_yields (den P prog f (TAssert p) env stk) stk env.
Proof.
  destruct f as [|f]; [exact I|]. rewrite den_S. cbn [denH].
  destruct (peval P prog f p env stk) as [[r errs]|o] eqn:EP.
  - apply yes_only_yields.
  - destruct o as [| |evs ab] eqn:EO; cbn; auto.
    intros s e Hin. exfalso. eapply peval_inr_no_out; eauto.
Qed.

Theorem pred_word_keeps_stack P prog f n positive w env stk :
  dlookup env n = None -> assoc (voc_table (p_tc P)) n = Some (BIPred positive w) ->
  only_yields (den P prog f (TRead n) env stk) stk env.
Proof.
  intros HL HV. destruct f as [|f]; cbn [den only_yields]; auto.
  rewrite HL, HV. destruct (run_pred P w stk) as [[r errs]|]; [apply yes_only_yields|intros s e []].
Qed.

Definition holds (r : pres) : bool := match r with PYes => true | _ => false end.

Theorem pred_exclusive r :
  match r with
  | PFail => holds r = false /\ holds (pnot r) = false
  | _ => holds r = negb (holds (pnot r))
  end.
Proof. destruct r; auto. Qed.

(* the number of values a `let` pops equals the number it took from the
   sub-expression's result, so what was on the stack stays *)
Theorem subx_then_binds keep sub stk out :
  subx_result keep sub stk = Some out -> skipn keep out = stk /\ firstn keep out = firstn keep sub.
Proof.
  unfold subx_result. destruct (Nat.leb keep (length sub)) eqn:L; [|discriminate].
  intros H. inversion H. apply Nat.leb_le in L.
  assert (Hl : length (firstn keep sub) = keep) by (rewrite firstn_length; lia).
  split.
  - rewrite skipn_app, Hl, Nat.sub_diag.
    rewrite skipn_all2 by lia. reflexivity.
  - rewrite firstn_app, Hl, Nat.sub_diag. rewrite app_nil_r.
    rewrite firstn_all2 by lia. reflexivity.
Qed.

Lemma seq_ok_inv a r evs ab :
  seq (ok a) r = DOk evs ab -> exists evs2, r = DOk evs2 ab /\ evs = a ++ evs2.
Proof.
  unfold seq, ok. destruct r as [| |evs2 ab2]; try discriminate.
  destruct (Nat.ltb event_cap (length a + length evs2)); [discriminate|].
  intros H. inversion H. eauto.
Qed.

Theorem capture_adds_one P prog f c env stk evs ab :
  den P prog f (TCapture c) env stk = DOk evs ab ->
  forall s e, In (DOut s e) evs -> exists vs, s = VSeq vs 0 :: stk /\ e = env.
Proof.
  destruct f as [|f]; [cbn; discriminate|]. rewrite den_S. cbn [denH].
  destruct (den P prog f c env stk) as [| |evs0 ab0]; try discriminate.
  set (go := fix go (evs : list dev) (acc : list value) : dres := _).
  intros H. revert H. generalize (@nil value) as acc. revert evs ab.
  induction evs0 as [|ev evs0 IH]; intros evs ab acc H s e Hin.
  - destruct ab0; inversion H; subst; cbn in Hin; try contradiction.
    destruct Hin as [E|[]]. inversion E. eauto.
  - cbn [go] in H. destruct ev as [st en|k].
    + destruct st as [|v st'].
      * inversion H; subst. destruct Hin.
      * eapply IH; eauto.
    + apply seq_ok_inv in H. destruct H as (evs1 & G & ->).
      destruct Hin as [E|Hin]; [discriminate|].
      eapply IH; eauto.
Qed.
