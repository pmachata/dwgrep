(* The core words agree with the obvious list / byte-string model. *)
From Coq Require Import ZArith List Bool Lia.
From Dwgrep Require Import Value Words.
Import ListNotations.

Lemma prefix_b_spec (n : list N) : forall h, prefix_b N.eqb n h = true <-> exists post, h = n ++ post.
Proof.
  induction n as [|x n IH]; intros h; cbn [prefix_b].
  - split; [intros _; exists h; reflexivity | auto].
  - destruct h as [|y h].
    + split; [discriminate|]. intros [post E]. discriminate.
    + rewrite andb_true_iff, N.eqb_eq, IH. split.
      * intros [-> [post ->]]. exists post. reflexivity.
      * intros [post E]. inversion E. split; [reflexivity | exists post; reflexivity].
Qed.

Lemma infix_b_spec (n : list N) : forall h,
  infix_b N.eqb n h = true <-> exists pre post, h = pre ++ n ++ post.
Proof.
  induction h as [|y h IH]; cbn [infix_b].
  - destruct n as [|x n].
    + split; auto. exists [], []. reflexivity.
    + split; [discriminate|]. intros (pre & post & E). destruct pre; discriminate.
  - rewrite orb_true_iff, prefix_b_spec, IH. split.
    + intros [[post E]|(pre & post & E)].
      * exists [], post. exact E.
      * exists (y :: pre), post. cbn. f_equal. exact E.
    + intros (pre & post & E). destruct pre as [|z pre].
      * left. exists post. exact E.
      * right. inversion E. eauto.
Qed.

Lemma suffix_b_spec (n h : list N) : suffix_b N.eqb n h = true <-> exists pre, h = pre ++ n.
Proof.
  unfold suffix_b. rewrite prefix_b_spec. split.
  - intros [post E]. exists (rev post). apply (f_equal (@rev N)) in E.
    rewrite rev_involutive, rev_app_distr, rev_involutive in E. exact E.
  - intros [pre ->]. exists (rev pre). apply rev_app_distr.
Qed.

(* elem / relem number their results 0, 1, 2, ... *)
Lemma number_go_spec l : forall i k d,
  (k < length l)%nat ->
  nth k ((fix go (l : list value) (i : N) : list value :=
            match l with [] => [] | x :: t => set_pos x i :: go t (i + 1)%N end) l i) d
  = set_pos (nth k l d) (i + N.of_nat k)%N.
Proof.
  induction l as [|x l IH]; intros i k d Hk; cbn [length] in Hk; [lia|].
  destruct k as [|k]; cbn [nth].
  - f_equal. lia.
  - rewrite IH by lia. f_equal. lia.
Qed.

Theorem number_spec l k d : (k < length l)%nat -> nth k (number l) d = set_pos (nth k l d) (N.of_nat k).
Proof. intros H. unfold number. rewrite number_go_spec by auto. f_equal. Qed.

Lemma number_length l : length (number l) = length l.
Proof.
  unfold number. generalize 0%N. induction l as [|x l IH]; intros i; cbn; auto.
Qed.

Theorem relem_is_elem_of_reverse P l p r :
  run_word P WRelem (VSeq l p :: r) = run_word P WElem (VSeq (rev l) p :: r).
Proof. reflexivity. Qed.

Theorem elem_seq_spec P l p r :
  run_word P WElem (VSeq l p :: r) = WOut (map (fun v => v :: r) (number l)) [].
Proof. reflexivity. Qed.

Theorem length_spec P r :
  (forall s p, run_word P WLength (VStr s p :: r) = WOut [VCst (Z.of_nat (length s)) DDec 0 :: r] []) /\
  (forall l p, run_word P WLength (VSeq l p :: r) = WOut [VCst (Z.of_nat (length l)) DDec 0 :: r] []).
Proof. split; reflexivity. Qed.

Theorem add_spec P r :
  (forall a pa b pb, run_word P WAdd (VStr b pb :: VStr a pa :: r) = WOut [VStr (a ++ b) 0 :: r] []) /\
  (forall a pa b pb, run_word P WAdd (VSeq b pb :: VSeq a pa :: r) = WOut [VSeq (a ++ b) 0 :: r] []).
Proof. split; reflexivity. Qed.

Theorem unsupported_no_result P z d p r :
  run_word P WLength (VCst z d p :: r) = WOut [] [SErr] /\
  run_word P WElem (VCst z d p :: r) = WOut [] [SErr] /\
  run_word P WAdd (VCst z d p :: VStr [] 0 :: r) = WOut [] [SErr].
Proof. repeat split; reflexivity. Qed.

Theorem find_str_spec P n pn h ph r :
  run_pred P PWFind (VStr n pn :: VStr h ph :: r)
  = Some (pres_of_bool (infix_b N.eqb n h), []).
Proof. reflexivity. Qed.

Theorem shuffle_spec P a b c r :
  run_word P WDup (a :: r) = WOut [a :: a :: r] [] /\
  run_word P WDrop (a :: r) = WOut [r] [] /\
  run_word P WSwap (a :: b :: r) = WOut [b :: a :: r] [] /\
  run_word P WOver (a :: b :: r) = WOut [b :: a :: b :: r] [] /\
  run_word P WRot (a :: b :: c :: r) = WOut [c :: a :: b :: r] [].
Proof. repeat split; reflexivity. Qed.

(* hex/dec/oct/bin change the domain, not the value *)
Theorem cast_keeps_value P z d p dom r :
  run_word P (WCast dom) (VCst z d p :: r) = WOut [VCst z dom 0 :: r] [].
Proof. reflexivity. Qed.
