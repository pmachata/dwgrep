(* One level of the specification evaluator with everything it calls left
   open: sequencing, feeding and the closure loop (the three places where the
   event cap is looked at), the recursive calls (rec, prec), the application of
   a closure (call) and the bound of the closure loop (g).  Den.den and its
   uncapped twin DenU.denU are both this body, closed in two ways (den_S,
   denU_S: by computation).  What is proved of the body once -- that it is
   monotone in all it calls, for any order "failed, or the same" -- gives
   monotonicity in fuel of den and of denU, den below denU (DenMono.v,
   DenUProofs.v), and the congruence the simplifier proof needs
   (SimplifyCorrect.v). *)
From Coq Require Import NArith List Arith Lia.
From Dwgrep Require Import Value Words Tree Engine Build Den DenU.
Import ListNotations.

Section Combinators.
  Variable cap : nat -> bool.

  Definition seqF (a b : dres) : dres :=
    match a with
    | DOk ea false =>
      match b with
      | DOk eb ab => if cap (length ea + length eb) then DFuel else DOk (ea ++ eb) ab
      | o => o
      end
    | o => o
    end.

  Definition bindF (r : dres) (k : stack -> denv -> dres) : dres :=
    match r with
    | DOk evs ab =>
      (fix go (evs : list dev) : dres :=
         match evs with
         | [] => DOk [] ab
         | DSoft s :: t => seqF (ok [DSoft s]) (go t)
         | DOut st e :: t => seqF (k st e) (go t)
         end) evs
    | o => o
    end.

  Section Loop.
    Variable step : stack -> dres.
    Variable env : denv.
    Fixpoint loopF (g : nat) (work seen : list stack) : dres :=
      match g with
      | O => DFuel
      | S g' =>
        match work with
        | [] => ok []
        | s :: rest =>
          match step s with
          | DOk evs ab =>
            let '(out, fresh, seen') := mark env evs seen in
            if ab then DOk out true
            else seqF (ok out) (loopF g' (rev fresh ++ rest) seen')
          | o => o
          end
        end
      end.
  End Loop.

End Combinators.

Definition pboth (op : pres -> pres -> pres) (x y : (pres * list soft) + dres) : (pres * list soft) + dres :=
  match x with
  | inl (ra, ea) =>
    match y with
    | inl (rb, eb) => inl (op ra rb, ea ++ eb)
    | inr o => inr o
    end
  | inr o => inr o
  end.

Lemma pboth_inr op x y o : pboth op x y = inr o -> x = inr o \/ y = inr o.
Proof.
  destruct x as [[ra ea]|ox]; [|intros H; left; exact H].
  destruct y as [[rb eb]|oy]; [discriminate|intros H; right; exact H].
Qed.

(* sq, bnd and lp are parameters, and not `seqF cap` ..., so that den_S below
   compares `seq` with `seq`: with seqF capD against seq inside every match of
   the body it takes ten times as long. *)
Section Hollow.
  Variable sq : dres -> dres -> dres.
  Variable bnd : dres -> (stack -> denv -> dres) -> dres.
  Variable lp : (stack -> dres) -> denv -> nat -> list stack -> list stack -> dres.
  Variable P : params.
  Variable call : denv -> N -> list value -> stack -> dres.
  Variable rec : tree -> denv -> stack -> dres.
  Variable prec : tree -> denv -> stack -> (pres * list soft) + dres.
  Variable g : nat.

  Definition denH (t : tree) (env : denv) (stk : stack) : dres :=
    match t with
    | TCat l =>
      (fix go (l : list tree) (env : denv) (stk : stack) : dres :=
         match l with
         | [] => ok [DOut stk env]
         | c :: r => bnd (rec c env stk) (fun s e => go r e s)
         end) l env stk
    | TAlt l =>
      (fix go (l : list tree) : dres :=
         match l with
         | [] => ok []
         | c :: r => sq (scoped env (rec c env stk)) (go r)
         end) l
    | TOr l =>
      (fix go (l : list tree) : dres :=
         match l with
         | [] => ok []
         | c :: r =>
           match scoped env (rec c env stk) with
           | DOk evs ab =>
             match outs_of evs with
             | [] => sq (DOk evs ab) (go r)
             | _ => DOk evs ab
             end
           | o => o
           end
         end) l
    | TCapture c =>
      match rec c env stk with
      | DOk evs ab =>
        (fix go (evs : list dev) (acc : list value) : dres :=
           match evs with
           | [] => if ab then abort else ok [DOut (VSeq acc 0 :: stk) env]
           | DSoft k :: r => sq (ok [DSoft k]) (go r acc)
           | DOut (v :: _) _ :: r => go r (acc ++ [v])
           | DOut [] _ :: _ => abort
           end) evs []
      | o => o
      end
    | TSubx keep c =>
      bnd (rec c env stk)
            (fun s _ => match subx_result keep s stk with
                        | Some out => ok [DOut out env]
                        | None => abort
                        end)
    | TIfElse c a b =>
      match rec c env stk with
      | DOk evs ab =>
        let '(pre, o) := upto_first evs in
        match o with
        | Some _ => sq (ok (softs pre)) (scoped env (rec a env stk))
        | None => if ab then DOk (softs pre) true else sq (ok (softs pre)) (scoped env (rec b env stk))
        end
      | o => o
      end
    | TScope c => scoped env (rec c env stk)
    | TBlock id _ => ok [DOut (VClo id (encode_env env) 0 :: stk) env]
    | TBind n =>
      match stk with
      | v :: r => ok [DOut r ((n, v) :: env)]
      | [] => abort
      end
    | TRead n =>
      match dlookup env n with
      | Some (VClo blk cenv _) => call env blk cenv stk
      | Some v => ok [DOut (v :: stk) env]
      | None =>
        match assoc (voc_table (p_tc P)) n with
        | Some (BIExec WApply) =>
          match stk with
          | VClo blk cenv _ :: rest => call env blk cenv rest
          | _ :: _ => ok [DSoft SErr]
          | [] => abort
          end
        | Some (BIExec w) => word_events env (run_word P w stk)
        | Some (BIPred positive w) =>
          match run_pred P w stk with
          | None => abort
          | Some (r, errs) =>
            let r' := if positive then r else pnot r in
            ok (softs errs ++ match r' with PYes => [DOut stk env] | _ => [] end)
          end
        | None => DStuck
        end
      end
    | TNop | TDebug => ok [DOut stk env]
    | TStar c => sq (ok [DOut stk env]) (lp (rec c env) env g [stk] [stk])
    | TPlus c => lp (rec c env) env g [stk] []
    | TAssert p =>
      match prec p env stk with
      | inl (r, errs) => ok (softs errs ++ match r with PYes => [DOut stk env] | _ => [] end)
      | inr o => o
      end
    | TEmptyList => ok [DOut (VSeq [] 0 :: stk) env]
    | TConst z d => ok [DOut (VCst z d 0 :: stk) env]
    | TStr s => ok [DOut (VStr s 0 :: stk) env]
    | TFormat l =>
      let fix fmt (parts : list tree) : dres :=
          match parts with
          | [] => ok [DOut (VStr [] 0 :: stk) env]
          | part :: rest =>
            bnd (fmt rest)
                  (fun s1 e1 =>
                     match s1 with
                     | VStr suffix _ :: s1' =>
                       match part with
                       | TStr lit => ok [DOut (VStr (lit ++ suffix) 0 :: s1') e1]
                       | _ =>
                         bnd (rec part e1 s1')
                               (fun s2 e2 =>
                                  match s2 with
                                  | v :: s2' => ok [DOut (VStr (show (p_tc P) v ++ suffix) 0 :: s2') e2]
                                  | [] => abort
                                  end)
                       end
                     | _ => DStuck
                     end)
          end in
      match fmt l with
      | DOk evs ab =>
        DOk ((fix num (evs : list dev) (i : N) : list dev :=
                match evs with
                | [] => []
                | DOut (VStr str _ :: s) e :: t => DOut (VStr str i :: s) e :: num t (i + 1)%N
                | ev :: t => ev :: num t i
                end) evs 0%N) ab
      | o => o
      end
    | TBuiltin (BPredPos positive n) =>
      match stk with
      | v :: _ => if Bool.eqb (N.eqb (vpos v) n) positive then ok [DOut stk env] else ok []
      | [] => abort
      end
    | TBuiltin (BDropBelow n) => word_events env (run_word P (WDropBelow n) stk)
    | TPredAnd _ _ | TPredOr _ _ | TPredNot _ | TPredSubx _ => DStuck
    end.

  Definition pevalF (p : tree) (env : denv) (stk : stack) : (pres * list soft) + dres :=
    match p with
    | TPredNot a =>
      match prec a env stk with
      | inl (r, e) => inl (pnot r, e)
      | o => o
      end
    | TPredAnd a b => pboth pand (prec a env stk) (prec b env stk)
    | TPredOr a b => pboth por (prec a env stk) (prec b env stk)
    | TPredSubx c =>
      match rec c env stk with
      | DOk evs ab =>
        let '(pre, o) := upto_first evs in
        match o with
        | Some _ => inl (PYes, pre)
        | None => if ab then inr (DOk (softs pre) true) else inl (PNo, pre)
        end
      | o => inr o
      end
    | TBuiltin (BPredPos positive n) =>
      match stk with
      | v :: _ => inl (pres_of_bool (Bool.eqb (N.eqb (vpos v) n) positive), [])
      | [] => inr abort
      end
    | _ => inr DStuck
    end.
End Hollow.

Definition denF (cap : nat -> bool) := denH (seqF cap) (bindF cap) (loopF cap).

Definition callF (look : N -> option tree) (rec : tree -> denv -> stack -> dres)
           (env : denv) (blk : N) (cenv : list value) (rest : stack) : dres :=
  match look blk with
  | Some body => scoped env (rec body (decode_env cenv) rest)
  | None => DStuck
  end.

Definition capD : nat -> bool := Nat.ltb event_cap.
Definition capU : nat -> bool := fun _ => false.

Lemma den_S P prog f t env stk :
  den P prog (S f) t env stk =
  denH seq bind_outs closure_loop P (callF (find_block prog) (den P prog f)) (den P prog f) (peval P prog f) f t env stk.
Proof. reflexivity. Qed.

Lemma peval_S P prog f p env stk :
  peval P prog (S f) p env stk = pevalF (den P prog f) (peval P prog f) p env stk.
Proof. reflexivity. Qed.

Lemma denU_S P prog f t env stk :
  denU P prog (S f) t env stk =
  denH seqU bind_outsU closure_loopU P (callF (find_block prog) (denU P prog f)) (denU P prog f) (pevalU P prog f) f t env stk.
Proof. reflexivity. Qed.

Lemma pevalU_S P prog f p env stk :
  pevalU P prog (S f) p env stk = pevalF (denU P prog f) (pevalU P prog f) p env stk.
Proof. reflexivity. Qed.

(* Orders on outcomes of the form "r1 failed, or r2 is the same": `bot` says
   which outcomes count as failed.  Running out of fuel does; a result list
   does not.  (bot = {DFuel}: DenMono.rle.  bot = {DFuel, DStuck}: SimplifyCorrect.dle.) *)
Section Below.
  Variable bot : dres -> Prop.
  Hypothesis bot_fuel : bot DFuel.
  Hypothesis bot_ok : forall evs ab, ~ bot (DOk evs ab).

  Definition ble (r1 r2 : dres) : Prop := bot r1 \/ r1 = r2.
  Definition pble (x y : (pres * list soft) + dres) : Prop :=
    (exists r, x = inr r /\ bot r) \/ x = y.

  Lemma ble_refl r : ble r r.
  Proof. right. reflexivity. Qed.

  Lemma bot_inv r : bot r -> r = DFuel \/ r = DStuck.
  Proof. destruct r; auto. intros B. destruct (bot_ok _ _ B). Qed.

  (* B : bot r, where the left side of the goal is r in one of the evaluator's
     contexts.  All of them are strict: a failure comes out as it went in. *)
  Ltac failed B := left; destruct (bot_inv _ B) as [E | E]; rewrite E in B |- *; exact B.

  Lemma case_ble (F F' : list dev -> bool -> dres) r r' :
    ble r r' -> (forall evs ab, ble (F evs ab) (F' evs ab)) ->
    ble (match r with DOk evs ab => F evs ab | DFuel => DFuel | DStuck => DStuck end)
        (match r' with DOk evs ab => F' evs ab | DFuel => DFuel | DStuck => DStuck end).
  Proof. intros [B | ->] H; [failed B|]. destruct r'; try apply ble_refl. apply H. Qed.

  Lemma scoped_ble env r r' : ble r r' -> ble (scoped env r) (scoped env r').
  Proof. intros [B | ->]; [failed B|apply ble_refl]. Qed.

  Lemma callF_ble look rec1 rec2 : (forall t env stk, ble (rec1 t env stk) (rec2 t env stk)) ->
    forall env blk cenv rest, ble (callF look rec1 env blk cenv rest) (callF look rec2 env blk cenv rest).
  Proof. intros H env blk cenv rest. unfold callF. destruct (look blk); [apply scoped_ble, H|apply ble_refl]. Qed.

  Variables cap1 cap2 : nat -> bool.
  Hypothesis Hcap : forall n, cap2 n = true -> cap1 n = true.

  Lemma seqF_ble a a' b b' : ble a a' -> ble b b' -> ble (seqF cap1 a b) (seqF cap2 a' b').
  Proof.
    intros [B | ->] Hb; [failed B|].
    destruct a' as [| |ea [|]]; try apply ble_refl.
    destruct Hb as [B | ->]; [failed B|].
    destruct b' as [| |eb abb]; try apply ble_refl. cbn [seqF].
    destruct (cap2 _) eqn:C; [rewrite (Hcap _ C); apply ble_refl|].
    destruct (cap1 _); [left; exact bot_fuel|apply ble_refl].
  Qed.

  Lemma bindF_ble r r' k k' :
    ble r r' -> (forall s e, ble (k s e) (k' s e)) -> ble (bindF cap1 r k) (bindF cap2 r' k').
  Proof.
    intros [B | ->] H; [failed B|].
    destruct r' as [| |evs ab]; try apply ble_refl.
    induction evs as [|[s e|k0] evs IH].
    - apply ble_refl.
    - apply seqF_ble; [apply H|exact IH].
    - apply seqF_ble; [apply ble_refl|exact IH].
  Qed.

  Lemma loopF_ble (step step' : stack -> dres) env : (forall s, ble (step s) (step' s)) ->
    forall g g', g <= g' -> forall work seen, ble (loopF cap1 step env g work seen) (loopF cap2 step' env g' work seen).
  Proof.
    intros Hs. induction g as [|g IH]; intros g' L work seen; [left; exact bot_fuel|].
    destruct g' as [|g']; [lia|]. cbn [loopF]. destruct work as [|s rest]; [apply ble_refl|].
    apply case_ble; [apply Hs|]. intros evs ab.
    destruct (mark env evs seen) as [[out fresh] seen'].
    destruct ab; [apply ble_refl|].
    apply seqF_ble; [apply ble_refl|]. apply IH. lia.
  Qed.

  Variable P : params.
  Variables call1 call2 : denv -> N -> list value -> stack -> dres.
  Variables rec1 rec2 : tree -> denv -> stack -> dres.
  Variables prec1 prec2 : tree -> denv -> stack -> (pres * list soft) + dres.
  Variables g1 g2 : nat.
  Hypothesis Hg : g1 <= g2.
  Hypothesis Hcall : forall env blk cenv rest, ble (call1 env blk cenv rest) (call2 env blk cenv rest).
  Hypothesis Hrec : forall t env stk, ble (rec1 t env stk) (rec2 t env stk).
  Hypothesis Hprec : forall p env stk, pble (prec1 p env stk) (prec2 p env stk).

  Theorem denF_ble t env stk :
    ble (denF cap1 P call1 rec1 prec1 g1 t env stk) (denF cap2 P call2 rec2 prec2 g2 t env stk).
  Proof.
    destruct t; cbn [denF denH]; try apply ble_refl.
    - (* TCat *)
      revert env stk. induction l as [|c r IHl]; intros env stk; [apply ble_refl|].
      apply bindF_ble; [apply Hrec|]. intros s e. apply IHl.
    - (* TAlt *)
      induction l as [|c r IHl]; [apply ble_refl|].
      apply seqF_ble; [apply scoped_ble, Hrec|apply IHl].
    - (* TOr *)
      induction l as [|c r IHl]; [apply ble_refl|].
      apply case_ble; [apply scoped_ble, Hrec|]. intros evs ab.
      destruct (outs_of evs); [|apply ble_refl]. apply seqF_ble; [apply ble_refl|apply IHl].
    - (* TCapture *)
      apply case_ble; [apply Hrec|]. intros evs ab.
      match goal with |- ble (?G1 evs []) (?G2 evs []) => enough (forall acc, ble (G1 evs acc) (G2 evs acc)) as H by apply H end.
      induction evs as [|[[|v s0] e0|k0] evs IHe]; intros acc; try apply ble_refl; [apply IHe|].
      apply seqF_ble; [apply ble_refl|apply IHe].
    - (* TSubx *)
      apply bindF_ble; [apply Hrec|]. intros s e. apply ble_refl.
    - (* TIfElse *)
      apply case_ble; [apply Hrec|]. intros evs ab.
      destruct (upto_first evs) as [pre [o|]].
      + apply seqF_ble; [apply ble_refl|apply scoped_ble, Hrec].
      + destruct ab; [apply ble_refl|]. apply seqF_ble; [apply ble_refl|apply scoped_ble, Hrec].
    - (* TScope *) apply scoped_ble, Hrec.
    - (* TRead *)
      destruct (dlookup env n) as [[z d p0|s p0|l p0|blk cenv p0]|]; try apply ble_refl; [apply Hcall|].
      destruct (assoc (voc_table (p_tc P)) n) as [[w|pos w]|]; try apply ble_refl.
      destruct w; try apply ble_refl.
      destruct stk as [|[z d p0|s p0|l p0|blk cenv p0] rest]; try apply ble_refl. apply Hcall.
    - (* TStar *)
      apply seqF_ble; [apply ble_refl|]. apply loopF_ble; [|exact Hg]. apply Hrec.
    - (* TPlus *)
      apply loopF_ble; [|exact Hg]. apply Hrec.
    - (* TAssert *)
      destruct (Hprec t env stk) as [(r & -> & B) | ->]; [left; exact B|apply ble_refl].
    - (* TFormat *)
      apply case_ble; [|intros; apply ble_refl].
      induction l as [|part rest IHl]; [apply ble_refl|].
      apply bindF_ble; [apply IHl|]. intros s1 e1.
      destruct s1 as [|[z d p0|suffix p0|l0 p0|blk cenv p0] s1']; try apply ble_refl.
      destruct part; try apply ble_refl;
        (apply bindF_ble; [apply Hrec|intros s2 e2; apply ble_refl]).
  Qed.

  Lemma pble_refl x : pble x x.
  Proof. right. reflexivity. Qed.

  Lemma pboth_ble op x x' y y' : pble x x' -> pble y y' -> pble (pboth op x y) (pboth op x' y').
  Proof.
    intros [(r & -> & B) | ->] Hy; [left; exists r; auto|].
    destruct x' as [[ra ea]|o]; [|apply pble_refl].
    destruct Hy as [(r & -> & B) | ->]; [left; exists r; auto|apply pble_refl].
  Qed.

  Theorem pevalF_ble p env stk : pble (pevalF rec1 prec1 p env stk) (pevalF rec2 prec2 p env stk).
  Proof.
    destruct p; cbn [pevalF]; try apply pble_refl.
    - (* TPredAnd *) apply pboth_ble; apply Hprec.
    - (* TPredOr *) apply pboth_ble; apply Hprec.
    - (* TPredNot *)
      destruct (Hprec p env stk) as [(r & -> & B) | ->]; [left; eauto|apply pble_refl].
    - (* TPredSubx *)
      destruct (Hrec p env stk) as [B | ->]; [|apply pble_refl].
      left. exists (rec1 p env stk). destruct (rec1 p env stk); [auto|auto|destruct (bot_ok _ _ B)].
  Qed.
End Below.

Section Towers.
  Variable bot : dres -> Prop.
  Hypothesis bot_fuel : bot DFuel.
  Hypothesis bot_ok : forall evs ab, ~ bot (DOk evs ab).
  Variables cap1 cap2 : nat -> bool.
  Hypothesis Hcap : forall n, cap2 n = true -> cap1 n = true.
  Variable P : params.
  Variable look : N -> option tree.
  Variables d1 d2 : nat -> tree -> denv -> stack -> dres.
  Variables p1 p2 : nat -> tree -> denv -> stack -> (pres * list soft) + dres.
  Hypothesis d1_O : forall t env stk, d1 O t env stk = DFuel.
  Hypothesis p1_O : forall p env stk, p1 O p env stk = inr DFuel.
  Hypothesis d1_S : forall f t env stk,
    d1 (S f) t env stk = denF cap1 P (callF look (d1 f)) (d1 f) (p1 f) f t env stk.
  Hypothesis p1_S : forall f p env stk, p1 (S f) p env stk = pevalF (d1 f) (p1 f) p env stk.
  Hypothesis d2_S : forall f t env stk,
    d2 (S f) t env stk = denF cap2 P (callF look (d2 f)) (d2 f) (p2 f) f t env stk.
  Hypothesis p2_S : forall f p env stk, p2 (S f) p env stk = pevalF (d2 f) (p2 f) p env stk.

  Theorem tower_ble : forall f g, f <= g ->
    (forall t env stk, ble bot (d1 f t env stk) (d2 g t env stk)) /\
    (forall p env stk, pble bot (p1 f p env stk) (p2 g p env stk)).
  Proof.
    induction f as [|f IH]; intros g L.
    - split; intros; left; [rewrite d1_O; exact bot_fuel|rewrite p1_O; eauto].
    - destruct g as [|g]; [lia|]. destruct (IH g) as [IHd IHp]; [lia|].
      split; intros.
      + rewrite d1_S, d2_S. apply denF_ble; auto; [lia|]. apply callF_ble; auto.
      + rewrite p1_S, p2_S. apply pevalF_ble; auto.
  Qed.
End Towers.
