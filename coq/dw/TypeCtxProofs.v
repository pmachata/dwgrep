(* What the peeling does: a qualifier or typedef in front of a type is transparent
   (one layer per application of qualifier_transparent), a pointer is a pointer
   whatever it points to, more fuel never changes an answer -- and a typedef /
   qualifier whose DW_AT_type is the DIE itself is never left. *)
From Coq Require Import NArith Bool.
From Dwgrep Require Import Atval TypeCtx.
Import TypeCtxM.
Local Open Scope N_scope.

Lemma peel_S f ts d : peel (S f) ts d =
  match td_type d with
  | None => Some d
  | Some o => match lookup ts o with None => None | Some t => if keep_peeling (td_tag t) then peel f ts t else Some t end
  end.
Proof. reflexivity. Qed.

Lemma peel_start f ts d d' : td_type d = td_type d' -> peel f ts d = match f with O => None | S _ => match td_type d with None => Some d | Some _ => peel f ts d' end end.
Proof. intros E. destruct f as [|f]; [reflexivity|]. rewrite !peel_S, <- E. destruct (td_type d); reflexivity. Qed.

Lemma peel_mono f ts : forall d r, peel f ts d = Some r -> peel (S f) ts d = Some r.
Proof.
  induction f as [|f IH]; intros d r; [discriminate|]. rewrite (peel_S (S f)), (peel_S f).
  destruct (td_type d) as [o|]; [|auto]. destruct (lookup ts o) as [t|]; [|auto]. destruct (keep_peeling (td_tag t)); auto.
Qed.

Lemma peel_more f g ts d r : (f <= g)%nat -> peel f ts d = Some r -> peel g ts d = Some r.
Proof. intros L H. induction L as [|g L IH]; [exact H|]. apply peel_mono. exact IH. Qed.

Lemma peel_through f ts ty o w : ty = Some o -> lookup ts o = Some w -> keep_peeling (td_tag w) = true ->
  peel (S f) ts (holder ty) = peel f ts w.
Proof. intros -> L K. rewrite peel_S. cbn [holder td_type]. rewrite L, K. reflexivity. Qed.

Lemma peel_stop f ts d o t : td_type d = Some o -> lookup ts o = Some t -> keep_peeling (td_tag t) = false ->
  peel (S f) ts d = Some t.
Proof. intros T L K. rewrite peel_S, T, L, K. reflexivity. Qed.

(* the context depends on where the peeling stops, and on the fuel only in that there must be enough *)
Lemma ctx_from_stop f g ts d d' r : (f <= g)%nat -> (forall t, peel f ts d = Some t -> peel g ts d' = Some t) ->
  ctx_from f ts d = Some r -> ctx_from g ts d' = Some r.
Proof.
  intros L P. unfold ctx_from. destruct (peel f ts d) as [t|]; [|discriminate]. rewrite (P t eq_refl).
  destruct ((td_tag t =? TAG_pointer_type) || (td_tag t =? TAG_ptr_to_member_type)); [auto|].
  destruct (negb (td_tag t =? TAG_enumeration_type) && _); [auto|].
  destruct (td_enc t); [auto|]. destruct (td_type t); [|auto].
  destruct (peel f ts t) as [ut|] eqn:P2; [|discriminate]. rewrite (peel_more f g ts t ut L P2). auto.
Qed.

Lemma ctx_more f g ts d r : (f <= g)%nat -> ctx_from f ts d = Some r -> ctx_from g ts d = Some r.
Proof. intros L. apply ctx_from_stop; [exact L|]. intros t. apply peel_more, L. Qed.

(* the context of `cv T` / `typedef T` is the context of T, whatever T is *)
Theorem qualifier_transparent f ts o w o' r :
  lookup ts o = Some w -> keep_peeling (td_tag w) = true -> td_type w = Some o' ->
  var_ctx f ts (Some o') = Some r -> var_ctx (S f) ts (Some o) = Some r.
Proof.
  intros L K T. apply ctx_from_stop; [apply le_S, le_n|]. intros t P.
  rewrite (peel_through f ts (Some o) o w eq_refl L K), <- P.
  destruct f; [reflexivity|]. rewrite (peel_start _ ts w (holder (Some o'))), T by exact T. reflexivity.
Qed.

Theorem base_type_encoding f ts o t e :
  lookup ts o = Some t -> td_tag t = TAG_base_type -> td_enc t = Some e ->
  var_ctx (S f) ts (Some o) = Some (TEnc e).
Proof.
  intros L T E. unfold var_ctx, ctx_from. rewrite (peel_stop f ts (holder (Some o)) o t eq_refl L) by (rewrite T; reflexivity).
  rewrite T, E. reflexivity.
Qed.

Theorem pointer_is_pointer f ts o t :
  lookup ts o = Some t -> (td_tag t = TAG_pointer_type \/ td_tag t = TAG_ptr_to_member_type) ->
  var_ctx (S f) ts (Some o) = Some TPointer.
Proof.
  intros L T. unfold var_ctx, ctx_from. rewrite (peel_stop f ts (holder (Some o)) o t eq_refl L) by (destruct T as [T|T]; rewrite T; reflexivity).
  destruct T as [T|T]; rewrite T; reflexivity.
Qed.

Theorem no_type_no_info f ts : var_ctx (S f) ts None = Some TNoInfo.
Proof. reflexivity. Qed.

Theorem enumerator_underlying f ts p o t e :
  td_tag p = TAG_enumeration_type -> td_type p = Some o ->
  lookup ts o = Some t -> td_tag t = TAG_base_type -> td_enc t = Some e ->
  enumerator_ctx (S f) ts p = Some (TEnc e).
Proof.
  intros TP TY L T E. unfold enumerator_ctx, ctx_from. rewrite TP, TY, (peel_stop f ts p o t TY L) by (rewrite T; reflexivity).
  rewrite T, E. reflexivity.
Qed.

(* the loop of get_type_die has no bound of its own: a typedef / qualifier whose DW_AT_type is the DIE itself
   (the cycle of length one) is never left, whatever the fuel *)
Theorem circular_chain_never_ends ts o w :
  lookup ts o = Some w -> keep_peeling (td_tag w) = true -> td_type w = Some o ->
  forall f, peel f ts w = None.
Proof.
  intros L K T f. induction f as [|f IH]; [reflexivity|]. rewrite peel_S, T, L, K. exact IH.
Qed.
