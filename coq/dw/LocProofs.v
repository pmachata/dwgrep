From Coq Require Import ZArith List Lia.
From Dwgrep Require Import ListAux TwosComplement Loc.
Import ListNotations.
Local Open Scope Z_scope.

(* a signed operand survives the trip through libdw's unsigned word *)
Theorem signed_operand_roundtrip z : - two64 / 2 <= z < two64 / 2 -> sword_of (word_of z) = z.
(* the numeral is 2^63 = two64 / 2; the statement is signed_mod's at that m, by conversion *)
Proof. exact (signed_mod 9223372036854775808 z). Qed.

Theorem unsigned_operand_kept n : 0 <= n < two64 -> word_of n = n.
Proof. intros H. apply Z.mod_small. exact H. Qed.

(* `value` of an operation with one signed operand, and of DW_OP_bregx (146: unsigned register, signed offset), is
   the stored operands *)
Theorem signed_class_value o : op_class (o_code o) = OCSigned -> - two64 / 2 <= o_a o < two64 / 2 ->
  op_values o = Some [(o_a o, ODec)].
Proof. intros C R. unfold op_values. rewrite C, signed_operand_roundtrip by exact R. reflexivity. Qed.

Theorem bregx_value off r d : 0 <= r < two64 -> - two64 / 2 <= d < two64 / 2 ->
  op_values (mkop off 146 r d) = Some [(r, ODec); (d, ODec)].
Proof.
  intros R D. unfold op_values. cbn [o_code o_a o_b]. change (op_class 146) with OCTwoUS.
  rewrite unsigned_operand_kept, signed_operand_roundtrip by assumption. reflexivity.
Qed.

(* the words length / elem / relem / ?OP_x on one element of a location list *)
Lemma number_length {A} (l : list A) : forall i, length (number l i) = length l.
Proof. induction l as [|x l IH]; intros i; cbn; [reflexivity|rewrite IH; reflexivity]. Qed.
Lemma number_snd {A} (l : list A) : forall i, map snd (number l i) = l.
Proof. induction l as [|x l IH]; intros i; cbn; [reflexivity|rewrite IH; reflexivity]. Qed.
Lemma number_fst {A} (l : list A) : forall i, map fst (number l i) = map (fun k => (i + N.of_nat k)%N) (seq 0 (length l)).
Proof.
  induction l as [|x l IH]; intros i; cbn [number map length seq]; [reflexivity|].
  f_equal; [cbn; lia|]. rewrite IH, <- seq_shift, map_map. apply map_ext. lia.
Qed.

Theorem length_is_number_of_elem e : w_length e = N.of_nat (length (w_elem e)).
Proof. unfold w_length, w_elem. rewrite number_length. reflexivity. Qed.

Theorem relem_is_elem_reversed e : map snd (w_relem e) = rev (map snd (w_elem e)).
Proof. unfold w_relem, w_elem. rewrite !number_snd. reflexivity. Qed.

Theorem elem_in_stored_order e : map snd (w_elem e) = l_ops e /\
  map fst (w_elem e) = map N.of_nat (seq 0 (length (l_ops e))).
Proof.
  unfold w_elem. split; [apply number_snd|]. rewrite number_fst. apply map_ext. lia.
Qed.

Theorem has_op_iff e code : w_has_op e code = true <-> exists o, In o (l_ops e) /\ o_code o = code.
Proof.
  unfold w_has_op. rewrite existsb_exists. split; intros [o [I E]]; exists o; split; auto; apply N.eqb_eq; auto.
Qed.

Theorem lookup_finds table : NoDup (map ab_code table) -> forall a, In a table -> lookup table (ab_code a) = Some a.
Proof.
  intros ND a I. apply find_unique; [exact I|apply N.eqb_refl|]. intros q Iq E. apply N.eqb_eq in E.
  exact (NoDup_map_inj ab_code table q a ND Iq I E).
Qed.

Theorem matches_spec a tag flag attrs : matches a tag flag attrs = true ->
  ab_tag a = tag /\ ab_children a = flag /\ map fst (ab_attrs a) = map fst attrs.
Proof.
  intros H. apply andb_prop in H. destruct H as [H H3]. apply andb_prop in H. destruct H as [H1 H2].
  apply N.eqb_eq in H1. apply Bool.eqb_prop in H2. repeat split; auto.
  revert attrs H3. induction (ab_attrs a) as [|[n f] l IH]; intros [|[n' f'] d] H; cbn in *; try discriminate; auto.
  apply andb_prop in H. destruct H as [H H']. apply andb_prop in H. destruct H as [Hn _]. apply N.eqb_eq in Hn.
  f_equal; auto.
Qed.
