From Coq Require Import NArith List Bool Lia.
From Dwgrep Require Import Symtab.
Local Open Scope N_scope.

Theorem info_roundtrip b t : t < 16 -> st_type (st_info b t) = t /\ st_bind (st_info b t) = b.
Proof.
  unfold st_type, st_bind, st_info. intros H. rewrite (N.mod_small t 16 H). split.
  - rewrite N.add_comm, N.mod_add by lia. apply N.mod_small. exact H.
  - rewrite N.div_add_l by lia. rewrite (N.div_small t 16 H). lia.
Qed.
Theorem visibility_ignores_upper_bits other k : st_visibility (other mod 4 + 4 * k) = other mod 4.
Proof.
  unfold st_visibility. rewrite (N.mul_comm 4 k), N.mod_add by lia. apply N.mod_small. apply N.mod_lt. lia.
Qed.
Theorem visibility_range other : st_visibility other < 4.
Proof. apply N.mod_lt. lia. Qed.

(* every entry exactly once, in table order, numbered from zero *)
Lemma rows_from_length tab : forall i, length (rows_from tab i) = length tab.
Proof. induction tab as [|s t IH]; intros i; cbn; [reflexivity|rewrite IH; reflexivity]. Qed.
Theorem rows_complete tab : length (rows tab) = length tab.
Proof. apply rows_from_length. Qed.
Lemma rows_from_nth tab : forall i k s, nth_error tab k = Some s ->
  nth_error (rows_from tab i) k = Some (mkrow (i + N.of_nat k) (s_name s) (s_value s) (s_size s)
                                              (st_type (s_info s)) (st_bind (s_info s)) (st_visibility (s_other s))).
Proof.
  induction tab as [|x t IH]; intros i k s H; destruct k; cbn in *; try discriminate.
  - inversion H. rewrite N.add_0_r. reflexivity.
  - rewrite (IH (i + 1) k s H). replace (i + 1 + N.of_nat k) with (i + N.of_nat (S k)) by (rewrite Nat2N.inj_succ; lia). reflexivity.
Qed.
Theorem rows_faithful tab k s : nth_error tab k = Some s ->
  nth_error (rows tab) k = Some (mkrow (N.of_nat k) (s_name s) (s_value s) (s_size s)
                                       (st_type (s_info s)) (st_bind (s_info s)) (st_visibility (s_other s))).
Proof. intros H. unfold rows. rewrite (rows_from_nth tab 0 k s H). reflexivity. Qed.

Theorem generic_codes_equal_everywhere f1 f2 c : c < LOOS -> const_eqb f1 c f2 c = true.
Proof. unfold const_eqb, key. intros H. apply N.ltb_lt in H. rewrite H. rewrite !N.eqb_refl. reflexivity. Qed.
Theorem machine_codes_never_equal_another_machines f1 f2 c1 c2 : LOOS <= c1 -> f1 <> f2 -> const_eqb f1 c1 f2 c2 = false.
Proof.
  unfold const_eqb, key. intros H NE. assert ((c1 <? LOOS) = false) as -> by (apply N.ltb_ge; exact H).
  destruct (c2 <? LOOS) eqn:E.
  - apply N.ltb_lt in E. apply andb_false_iff. right. apply N.eqb_neq. lia.
  - apply andb_false_iff. left. apply N.eqb_neq. exact NE.
Qed.
Theorem same_family_equal_iff_same_code f c1 c2 : const_eqb f c1 f c2 = true <-> c1 = c2.
Proof.
  split; [|intros ->; unfold const_eqb; destruct (key f c2); rewrite !N.eqb_refl; reflexivity].
  unfold const_eqb, key. destruct (c1 <? LOOS), (c2 <? LOOS); intros H; apply andb_prop in H; apply N.eqb_eq, H.
Qed.
