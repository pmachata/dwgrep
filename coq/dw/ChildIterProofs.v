(* The stack machine hands out exactly the in-place recursive expansion of imports, with the right chains. *)
From Coq Require Import List Arith.
From Dwgrep Require Import Forest ForestProofs ChildIter.
Import ListNotations.
Import ChildIterM.

Section Generic.
Variable into : die -> list die.

(* imports nest at most n deep below these DIEs *)
Fixpoint fits (n : nat) (f : forest) (kids : list die) : Prop :=
  Forall (fun k => match import_target f k with
                   | Some t => match n with O => False | S m => fits m f (into t) end
                   | None => True
                   end) kids.

Lemma fits_cons n f k ks : fits n f (k :: ks) <->
  (match import_target f k with Some t => match n with O => False | S m => fits m f (into t) end | None => True end) /\ fits n f ks.
Proof. destruct n; apply Forall_cons_iff. Qed.

Lemma expand_cons n f k ks c : expand into n f (k :: ks) c =
  (match import_target f k with Some t => match n with O => [] | S m => expand into m f (into t) (d_off k :: c) end | None => [(k, c)] end) ++ expand into n f ks c.
Proof. destruct n; reflexivity. Qed.

Lemma run_range f : forall n l st c, fits n f l ->
  exists w, forall e, run into (w + e) f (l :: st) c = expand into n f l c ++ run into e f st (tl c).
Proof.
  induction n as [n IHn] using lt_wf_ind. induction l as [|k ks IHl]; intros st c F.
  - exists 1%nat. destruct n; reflexivity.
  - apply fits_cons in F. destruct F as [Fk Fks]. destruct (IHl st c Fks) as [w2 H2].
    destruct (import_target f k) as [t|] eqn:T.
    + (* an import: the range of the imported unit first, one level less deep, then on with ks *)
      destruct n as [|m]; [destruct Fk|]. destruct (IHn m (Nat.lt_succ_diag_r m) (into t) (ks :: st) (d_off k :: c) Fk) as [w1 H1].
      exists (S (w1 + w2)). intros e. cbn [plus run]. rewrite T, <- Nat.add_assoc, H1. rewrite H2, expand_cons, T, <- app_assoc. reflexivity.
    + exists (S w2). intros e. cbn [plus run]. rewrite T, H2, expand_cons, T. reflexivity.
Qed.

Lemma run_one_range f n l : fits n f l -> exists w, forall e, run into (w + e) f [l] [] = expand into n f l [].
Proof.
  intros F. destruct (run_range f n l [] [] F) as [w H]. exists w. intros e.
  rewrite H. destruct e; apply app_nil_r.
Qed.
End Generic.

(* `child` in cooked mode: for every DIE below which imports nest at most n deep, and any fuel from some point on *)
Theorem children_are_the_expansion f n d : fits d_kids n f (d_kids d) ->
  exists w, forall e, children (w + e) f d = expand d_kids n f (d_kids d) [].
Proof. apply run_one_range. Qed.

(* `entry` on a unit in cooked mode: all DIEs of the unit in section order, every import replaced in place by all the
   DIEs of the imported unit but its root, recursively, with the chain of imports *)
Theorem entries_are_the_expansion f n r : fits rest_of_unit n f (preorder r) ->
  exists w, forall e, entries (w + e) f r = expand rest_of_unit n f (preorder r) [].
Proof. apply run_one_range. Qed.

Lemma expand_is_cooked_kids f : forall n l c, map fst (expand d_kids n f l c) = cooked_kids (S n) f l.
Proof.
  induction n as [|m IH]; intros l c; induction l as [|k ks IHl]; try reflexivity;
    rewrite expand_cons, map_app, IHl, cooked_kids_cons; destruct (import_target f k) as [t|]; rewrite ?IH; reflexivity.
Qed.

Corollary children_are_cooked_kids f n d : fits d_kids n f (d_kids d) ->
  exists w, forall e, map fst (children (w + e) f d) = cooked_kids (S n) f (d_kids d).
Proof.
  intros F. destruct (children_are_the_expansion f n d F) as [w H]. exists w. intros e. rewrite H. apply expand_is_cooked_kids.
Qed.
