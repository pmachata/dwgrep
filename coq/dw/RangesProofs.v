(* die_ranges denotes exactly the union of the stored ranges. *)
From Coq Require Import ZArith List Lia.
From Dwgrep Require Import CovModel CovProofs Ranges.
Import ListNotations.
Import RangesM.
Local Open Scope Z_scope.

Definition proper (r : Z * Z) : Prop := 0 <= fst r <= snd r /\ snd r < TOP.

(* a fold of steps each of which adds the interval [fst r, snd r) adds the union of the intervals; generic in the
   step, which is all that die_ranges and `built` differ in *)
Lemma fold_union_ok (step : cov -> Z * Z -> cov) :
  (forall c r, Inv c -> proper r -> Inv (step c r) /\ forall x, mem (step c r) x <-> mem c x \/ fst r <= x < snd r) ->
  forall rs c, Inv c -> (forall r, In r rs -> proper r) ->
  Inv (fold_left step rs c) /\ forall x, mem (fold_left step rs c) x <-> mem c x \/ exists r, In r rs /\ fst r <= x < snd r.
Proof.
  intros S. induction rs as [|r rs IH]; intros c Hc Hp; cbn [fold_left].
  - split; [exact Hc|]. intros x. rewrite <- Exists_exists, Exists_nil. tauto.
  - destruct (S c r Hc (Hp r (or_introl eq_refl))) as [Hi Hm].
    destruct (IH _ Hi (fun q Hq => Hp q (or_intror Hq))) as [Hi' Hm'].
    split; [exact Hi'|]. intros x. rewrite Hm', Hm, <- !Exists_exists, Exists_cons. apply or_assoc.
Qed.

(* shaped for `apply from_empty, fold_union_ok`: the hypothesis is what fold_union_ok concludes when started at [] *)
Lemma from_empty (c : cov) (P : Z -> Prop) :
  (Inv c /\ forall x, mem c x <-> mem [] x \/ P x) -> Inv c /\ forall x, mem c x <-> P x.
Proof. intros [Hi Hm]. split; [exact Hi|]. intros x. rewrite Hm. pose proof (mem_nil x). tauto. Qed.

Theorem die_ranges_ok rs : (forall r, In r rs -> proper r) ->
  Inv (die_ranges rs) /\ forall x, mem (die_ranges rs) x <-> exists r, In r rs /\ fst r <= x < snd r.
Proof.
  intros Hp. apply from_empty, fold_union_ok; [|exact I|exact Hp].
  intros c r Hc [[P0 P1] P2]. rewrite wsub_small by lia.
  destruct (add_ok c (fst r) (snd r - fst r) Hc P0 ltac:(lia) ltac:(lia)) as [Hi Hm].
  rewrite Zplus_minus in Hm. exact (conj Hi Hm).
Qed.

(* an empty entry (start = end) adds nothing and ends nothing: what follows it still counts *)
Corollary empty_entry_is_skipped pre a post : (forall r, In r (pre ++ (a, a) :: post) -> proper r) ->
  forall x, mem (die_ranges (pre ++ (a, a) :: post)) x <-> mem (die_ranges (pre ++ post)) x.
Proof.
  intros Hp x.
  assert (Hp' : forall r, In r (pre ++ post) -> proper r).
  { intros r Hr. apply Hp. rewrite in_app_iff in *. cbn [In]. tauto. }
  rewrite (proj2 (die_ranges_ok _ Hp) x), (proj2 (die_ranges_ok _ Hp') x), <- !Exists_exists, !Exists_app, Exists_cons.
  cbn [fst snd]. assert (~ a <= x < a) by lia. tauto.
Qed.

(* however it was built: the address set of a range list IS (the same canonical list as) the set built from
   the same ranges with the words aset and add *)
Definition built (rs : list (Z * Z)) : cov :=
  fold_left (fun c r => w_add c (w_aset (fst r) (snd r))) rs [].

Lemma w_aset_ok a b : 0 <= a <= b -> b < TOP -> Inv (w_aset a b) /\ forall x, mem (w_aset a b) x <-> a <= x < b.
Proof.
  intros H1 H2. unfold w_aset. rewrite Z.min_l, Z.max_r by lia. apply from_empty.
  pose proof (add_ok [] a (b - a) I ltac:(lia) ltac:(lia) ltac:(lia)) as H. rewrite Zplus_minus in H. exact H.
Qed.

Lemma built_ok rs : (forall r, In r rs -> proper r) ->
  Inv (built rs) /\ forall x, mem (built rs) x <-> exists r, In r rs /\ fst r <= x < snd r.
Proof.
  intros Hp. apply from_empty, fold_union_ok; [|exact I|exact Hp].
  intros c r Hc [P01 P2]. destruct (w_aset_ok (fst r) (snd r) P01 P2) as [Ia Ma].
  destruct (add_all_ok c _ Hc Ia) as [Hi Hm]. split; [exact Hi|]. intros x. rewrite <- Ma. apply Hm.
Qed.

Theorem ranges_equal_built rs : (forall r, In r rs -> proper r) -> die_ranges rs = built rs.
Proof.
  intros Hp. destruct (die_ranges_ok rs Hp) as [I1 M1], (built_ok rs Hp) as [I2 M2].
  apply (canonical _ 0 _ 0 I1 I2). intros x. rewrite M1, M2. reflexivity.
Qed.
