(* Parents by search are `find (has_kid o)` over the pre-order (parent_in_find, raw_parent_find), and `walkp` lists
   that pre-order with the DIE each DIE is reached from; cooked children are imports inlined in place (a flat_map);
   integrate_die has a closed form, `pick` and the first link of each kind (integrate_die_eq), from which the
   attribute loop is unfolded one round at a time (loop_step). *)
From Coq Require Import NArith List Bool.
From Dwgrep Require Import ListAux Forest FindAttr.
Import ListNotations.
Import FindAttrM.
Local Open Scope N_scope.

Lemma mem_In (n : N) l : existsb (N.eqb n) l = true <-> In n l.
Proof.
  rewrite existsb_exists. split; [intros [m [I E]]|intros I; exists n; split; [exact I|apply N.eqb_refl]].
  apply N.eqb_eq in E. rewrite E. exact I.
Qed.

Section DieInd.
  Variable P : die -> Prop.
  Hypothesis H : forall o t f a ats kids, Forall P kids -> P (Die o t f a ats kids).
  Fixpoint die_ind' (d : die) : P d :=
    match d with
    | Die o t f a ats kids =>
      H o t f a ats kids
        ((fix go (l : list die) : Forall P l :=
            match l with
            | [] => Forall_nil P
            | k :: l' => Forall_cons k (die_ind' k) (go l')
            end) kids)
    end.
End DieInd.

Lemma preorder_eq d : preorder d = d :: flat_map preorder (d_kids d).
Proof. destruct d; reflexivity. Qed.

Lemma preorder_self d : In d (preorder d).
Proof. rewrite preorder_eq. left. reflexivity. Qed.

Lemma preorder_kid d k x : In k (d_kids d) -> In x (preorder k) -> In x (preorder d).
Proof. intros Ik Ix. rewrite preorder_eq. right. apply in_flat_map. exists k. split; assumption. Qed.

Inductive reach : die -> die -> Prop :=
| reach_refl d : reach d d
| reach_step d k x : In k (d_kids d) -> reach k x -> reach d x.

Theorem preorder_is_child_closure : forall d x, In x (preorder d) <-> reach d x.
Proof.
  split.
  - revert x. induction d as [o t f a ats kids IH] using die_ind'. intros x Hx.
    destruct Hx as [<-|Hx]; [constructor|].
    apply in_flat_map in Hx. destruct Hx as [k [Ik Hx]].
    rewrite Forall_forall in IH. eapply reach_step; [exact Ik|]. apply IH; assumption.
  - induction 1 as [d|d k x Ik R IH]; [apply preorder_self|exact (preorder_kid d k x Ik IH)].
Qed.

Lemma preorder_trans d x y : In x (preorder d) -> In y (preorder x) -> In y (preorder d).
Proof.
  rewrite !preorder_is_child_closure. intros R. revert y.
  induction R as [d|d k x Ik R IH]; intros y Ry; [exact Ry|]. exact (reach_step d k y Ik (IH y Ry)).
Qed.

Definition has_kid (o : N) (p : die) : bool := existsb (fun k => d_off k =? o) (d_kids p).

Lemma has_kid_iff o p : has_kid o p = true <-> exists k, In k (d_kids p) /\ d_off k = o.
Proof. unfold has_kid. rewrite existsb_exists. split; intros [k [I E]]; exists k; split; auto; apply N.eqb_eq; exact E. Qed.

Lemma parent_in_find : forall r o, parent_in r o = find (has_kid o) (preorder r).
Proof.
  induction r as [o' t f a ats kids IH] using die_ind'. intros o. cbn [parent_in preorder find].
  change (existsb (fun k => d_off k =? o) kids) with (has_kid o (Die o' t f a ats kids)).
  destruct (has_kid o _); [reflexivity|].
  induction IH as [|k kids Hk _ IHk]; [reflexivity|]. cbn [flat_map]. rewrite find_app, <- Hk, IHk. reflexivity.
Qed.

Lemma raw_parent_find f o : raw_parent f o = find (has_kid o) (raw_entries f).
Proof.
  unfold raw_entries. induction f as [|u f IH]; [reflexivity|]. cbn [raw_parent flat_map]. rewrite find_app. unfold unit_dies at 1.
  destruct (u_root u) as [r|]; [rewrite parent_in_find; destruct (find _ (preorder r)); [reflexivity|exact IH]|exact IH].
Qed.

Theorem parent_in_sound r o p : parent_in r o = Some p -> In p (preorder r) /\ exists k, In k (d_kids p) /\ d_off k = o.
Proof. rewrite parent_in_find, <- has_kid_iff. apply find_some. Qed.

Fixpoint walkp (pa : option die) (d : die) : list (die * option die) :=
  match d with Die _ _ _ _ _ kids => (d, pa) :: flat_map (walkp (Some d)) kids end.

Lemma walkp_eq pa d : walkp pa d = (d, pa) :: flat_map (walkp (Some d)) (d_kids d).
Proof. destruct d; reflexivity. Qed.

Lemma walkp_fst : forall d pa, map fst (walkp pa d) = preorder d.
Proof.
  induction d as [o t f a ats kids IH] using die_ind'. intros pa. cbn [walkp preorder map fst]. f_equal.
  generalize (Some (Die o t f a ats kids)). intros q. induction IH as [|k kids Hk _ IHk]; [reflexivity|]. cbn [flat_map]. rewrite map_app, Hk, IHk. reflexivity.
Qed.

Lemma walkp_kid r pa p k : In p (preorder r) -> In k (d_kids p) -> In (k, Some p) (walkp pa r).
Proof.
  intros Hp Ik. apply preorder_is_child_closure in Hp. revert pa.
  induction Hp as [p|r c p Ic _ IH]; intros pa; rewrite walkp_eq; right; apply in_flat_map.
  - exists k. split; [exact Ik|]. rewrite walkp_eq. left. reflexivity.
  - exists c. split; [exact Ic|exact (IH Ik _)].
Qed.

(* trees with distinct offsets: a DIE is listed once, so with one parent or none *)
Section Parents.
  Variable l : list die.
  Hypothesis ND : NoDup (map d_off (flat_map preorder l)).

  Let listed (e : die * option die) : Prop := In e (flat_map (walkp None) l).

  Lemma listed_once e e' : listed e -> listed e' -> d_off (fst e) = d_off (fst e') -> e = e'.
  Proof.
    apply (NoDup_map_inj (fun e => d_off (fst e))). rewrite <- (map_map fst d_off). replace (map fst _) with (flat_map preorder l); [exact ND|].
    clear. induction l as [|r rs IH]; [reflexivity|]. cbn [flat_map]. rewrite map_app, walkp_fst, IH. reflexivity.
  Qed.

  Lemma listed_kid c p k : In c l -> In p (preorder c) -> In k (d_kids p) -> listed (k, Some p).
  Proof. intros Ic Hp Ik. apply in_flat_map. exists c. split; [exact Ic|exact (walkp_kid c None p k Hp Ik)]. Qed.

  Lemma finder_is_listed e q : listed e -> In q (flat_map preorder l) -> has_kid (d_off (fst e)) q = true -> snd e = Some q.
  Proof.
    intros Le Iq Hq. apply in_flat_map in Iq. destruct Iq as [c [Ic Iq]]. apply has_kid_iff in Hq. destruct Hq as [k [Ik E]].
    rewrite <- (listed_once _ _ (listed_kid c q k Ic Iq Ik) Le E). reflexivity.
  Qed.

  Theorem finds_parent c p k : In c l -> In p (preorder c) -> In k (d_kids p) ->
    find (has_kid (d_off k)) (flat_map preorder l) = Some p.
  Proof.
    intros Ic Hp Ik. apply find_unique.
    - apply in_flat_map. exists c. auto.
    - apply has_kid_iff. exists k. auto.
    - intros q Iq Hq. pose proof (finder_is_listed (k, Some p) q (listed_kid c p k Ic Hp Ik) Iq Hq) as X. injection X as <-. reflexivity.
  Qed.

  Theorem finds_no_parent r : In r l -> find (has_kid (d_off r)) (flat_map preorder l) = None.
  Proof.
    intros Ir. assert (R : listed (r, None)) by (apply in_flat_map; exists r; split; [exact Ir|rewrite walkp_eq; left; reflexivity]).
    destruct (find _ _) as [p|] eqn:E; [|reflexivity]. apply find_some in E.
    discriminate (finder_is_listed (r, None) p R (proj1 E) (proj2 E)).
  Qed.
End Parents.

Definition wf (f : forest) : Prop := NoDup (map d_off (raw_entries f)).

Definition roots (f : forest) : list die := flat_map (fun u => match u_root u with Some r => [r] | None => [] end) f.

Lemma raw_entries_roots f : raw_entries f = flat_map preorder (roots f).
Proof.
  unfold raw_entries, roots. induction f as [|u f IH]; [reflexivity|]. cbn [flat_map].
  rewrite IH, flat_map_app. unfold unit_dies. destruct (u_root u); cbn [flat_map]; rewrite ?app_nil_r; reflexivity.
Qed.

(* C05 (raw): every DIE yielded by `child` of D has D as `parent`; a unit root has none *)
Theorem raw_child_has_parent f : wf f -> forall r p k,
  In r (roots f) -> In p (preorder r) -> In k (d_kids p) -> raw_parent f (d_off k) = Some p.
Proof. unfold wf. rewrite raw_entries_roots. intros W r p k. rewrite raw_parent_find, raw_entries_roots. exact (finds_parent _ W r p k). Qed.

Theorem raw_root_has_no_parent f : wf f -> forall r, In r (roots f) -> raw_parent f (d_off r) = None.
Proof. unfold wf. rewrite raw_entries_roots. intros W r. rewrite raw_parent_find, raw_entries_roots. exact (finds_no_parent _ W r). Qed.

Theorem parent_in_complete r : NoDup (map d_off (preorder r)) ->
  forall p k, In p (preorder r) -> In k (d_kids p) -> parent_in r (d_off k) = Some p.
Proof.
  intros ND p k. rewrite parent_in_find. rewrite <- (app_nil_r (preorder r)) in ND |- * at 2.
  exact (finds_parent [r] ND r p k (in_eq r [])).
Qed.

Lemma parent_in_none r o : ~ In o (map d_off (preorder r)) -> parent_in r o = None.
Proof.
  intros N. destruct (parent_in r o) as [p|] eqn:E; [|reflexivity]. destruct N.
  apply parent_in_sound in E. destruct E as [Hp [k [Ik <-]]]. apply in_map.
  exact (preorder_trans r p k Hp (preorder_kid p k k Ik (preorder_self k))).
Qed.

(* C02: the rows of the raw view are the stored DIEs, in pre-order, each with its stored attributes *)
Theorem raw_rows_offsets f : map r_off (raw_rows f) = map d_off (raw_entries f).
Proof. unfold raw_rows. rewrite map_map. reflexivity. Qed.

Theorem raw_rows_exactly_once f : wf f -> NoDup (map r_off (raw_rows f)).
Proof. intros W. rewrite raw_rows_offsets. exact W. Qed.

Theorem raw_row_is_stored f d :
  r_tag (raw_row f d) = d_tag d /\ r_flag (raw_row f d) = d_flag d /\
  r_kids (raw_row f d) = map d_off (d_kids d) /\
  r_attrs (raw_row f d) = map (fun a => (a_name a, a_form a)) (d_attrs d).
Proof. repeat split. Qed.

Lemma cooked_kids_cons n f k ks : cooked_kids (S n) f (k :: ks) =
  match import_target f k with Some t => cooked_kids n f (d_kids t) | None => [k] end ++ cooked_kids (S n) f ks.
Proof. reflexivity. Qed.

Theorem cooked_kids_no_imports f kids n :
  Forall (fun k => import_target f k = None) kids -> cooked_kids (S n) f kids = kids.
Proof. intros F. induction F as [|k kids Hk F IH]; [reflexivity|]. rewrite cooked_kids_cons, Hk, IH. reflexivity. Qed.

Theorem cooked_kids_inlined : forall fuel f kids, Forall (fun k => import_target f k = None) (cooked_kids fuel f kids).
Proof.
  induction fuel as [|fu IH]; intros f kids; [constructor|]. cbn [cooked_kids].
  apply Forall_flat_map, Forall_forall. intros k _.
  destruct (import_target f k) eqn:E; [apply IH|constructor; [exact E|constructor]].
Qed.

(* C06: inlining is in place *)
Theorem cooked_kids_app fuel f l1 l2 : cooked_kids fuel f (l1 ++ l2) = cooked_kids fuel f l1 ++ cooked_kids fuel f l2.
Proof. destruct fuel; [reflexivity|]. cbn [cooked_kids]. apply flat_map_app. Qed.

Definition names (l : list (N * attr)) : list N := map (fun oa => a_name (snd oa)) l.

Definition skips (sec : bool) (n : N) : bool := sec && negb (should_integrate n).

(* What integrate_die takes from a list of attributes: those it may take (from a DIE reached through a link:
   not DW_AT_sibling / DW_AT_declaration), the first of each name, no name that has been seen. *)
Fixpoint pick (sec : bool) (seen : list N) (ats : list attr) : list attr :=
  match ats with
  | [] => []
  | a :: rest =>
    if skips sec (a_name a) || existsb (N.eqb (a_name a)) seen then pick sec seen rest
    else a :: pick sec (seen ++ [a_name a]) rest
  end.

Definition orelse {A} (sp : option A) (t : option A) : option A := match sp with Some _ => sp | None => t end.

(* integrate_die does three independent things: it picks attributes, and looks for the first DW_AT_specification
   and the first DW_AT_abstract_origin that lead somewhere *)
Lemma integrate_die_eq f sec d : forall ats seen sp ao,
  integrate_die f sec d ats seen sp ao =
  (map (pair (d_off d)) (pick sec seen ats),
  orelse sp (first_link f AT_specification ats), orelse ao (first_link f AT_abstract_origin ats),
  seen ++ map a_name (pick sec seen ats)).
Proof.
  assert (K : forall n a rest (sp : option die),
             orelse (if a_name a =? n then orelse sp (match a_ref a with Some o => find_die f o | None => None end) else sp) (first_link f n rest)
             = orelse sp (first_link f n (a :: rest))).
  { intros n a rest sp. cbn [first_link]. destruct (a_name a =? n), sp, (match a_ref a with Some o => find_die f o | None => None end); reflexivity. }
  induction ats as [|a rest IH]; intros seen sp ao; cbn [integrate_die pick map].
  - rewrite app_nil_r. destruct sp, ao; reflexivity.
  - rewrite <- !K.
    unfold skips. destruct (sec && negb (should_integrate (a_name a))); [apply IH|].
    destruct (existsb (N.eqb (a_name a)) seen); [apply IH|].
    rewrite IH. rewrite <- app_assoc. reflexivity.
Qed.

Lemma pick_nodup sec : forall ats seen, NoDup seen -> NoDup (seen ++ map a_name (pick sec seen ats)).
Proof.
  induction ats as [|a rest IH]; intros seen ND; cbn [pick map]; [rewrite app_nil_r; exact ND|].
  destruct (_ || existsb (N.eqb (a_name a)) seen) eqn:E; [apply IH; exact ND|]. apply orb_false_elim in E.
  cbn [map]. change (seen ++ a_name a :: ?l) with (seen ++ [a_name a] ++ l). rewrite app_assoc. apply IH.
  apply (NoDup_Add (Add_app (a_name a) seen [])). rewrite app_nil_r. split; [exact ND|]. rewrite <- mem_In, (proj2 E). discriminate.
Qed.

Lemma pick_sound sec : forall ats seen, Forall (fun a => In a ats /\ skips sec (a_name a) = false) (pick sec seen ats).
Proof.
  induction ats as [|a rest IH]; intros seen; cbn [pick]; [constructor|].
  assert (W : forall l, Forall (fun a => In a rest /\ skips sec (a_name a) = false) l -> Forall (fun x => In x (a :: rest) /\ skips sec (a_name x) = false) l).
  { apply Forall_impl. intros x [A B]. split; [right; exact A|exact B]. }
  destruct (_ || _) eqn:E; [apply W, IH|]. apply orb_false_elim in E.
  constructor; [split; [left; reflexivity|apply E]|apply W, IH].
Qed.

Lemma pick_find sec x : forall ats seen,
  find (fun a => a_name a =? x) (pick sec seen ats) =
  if skips sec x || existsb (N.eqb x) seen then None else find (fun a => a_name a =? x) ats.
Proof.
  induction ats as [|a rest IH]; intros seen; cbn [pick find]; [destruct (_ || _); reflexivity|].
  destruct (a_name a =? x) eqn:Ex.
  - apply N.eqb_eq in Ex. rewrite Ex. destruct (skips sec x || existsb (N.eqb x) seen) eqn:E; [rewrite IH, E; reflexivity|].
    cbn [find]. rewrite Ex, N.eqb_refl. reflexivity.
  - destruct (_ || existsb (N.eqb (a_name a)) seen); [apply IH|]. cbn [find].
    rewrite Ex, IH, existsb_app. cbn [existsb]. rewrite N.eqb_sym, Ex, !orb_false_r. reflexivity.
Qed.

Lemma pick_complete sec ats seen a : In a ats -> skips sec (a_name a) = false ->
  In (a_name a) (seen ++ map a_name (pick sec seen ats)).
Proof.
  intros Ia S. apply in_or_app. destruct (existsb (N.eqb (a_name a)) seen) eqn:E; [left; apply mem_In, E|right].
  pose proof (pick_find sec (a_name a) ats seen) as P. rewrite S, E in P. cbn [orb] in P.
  destruct (find _ ats) as [b|] eqn:F; [|pose proof (find_none _ _ F a Ia) as X; cbv beta in X; rewrite N.eqb_refl in X; discriminate X].
  apply find_some in P. destruct P as [Ib Eb]. apply N.eqb_eq in Eb. rewrite <- Eb. apply in_map, Ib.
Qed.

Lemma loop_step fu f d stack sec seen :
  cooked_attrs_loop (S fu) f (d :: stack) sec seen =
  let own := pick sec seen (d_attrs d) in
  map (pair (d_off d)) own ++
  cooked_attrs_loop fu f ((opt_list (first_link f AT_specification (d_attrs d)) ++ opt_list (first_link f AT_abstract_origin (d_attrs d))) ++ stack)
                    true (seen ++ map a_name own).
Proof. cbn [cooked_attrs_loop]. rewrite integrate_die_eq, <- app_assoc. reflexivity. Qed.

Lemma names_app l1 l2 : names (l1 ++ l2) = names l1 ++ names l2.
Proof. apply map_app. Qed.
Lemma names_own o l : names (map (pair o) l) = map a_name l.
Proof. unfold names. rewrite map_map. reflexivity. Qed.

(* C06: no attribute name is yielded twice, whatever the chains look like *)
Lemma loop_names_nodup : forall fuel f stack sec seen, NoDup seen ->
  NoDup (seen ++ names (cooked_attrs_loop fuel f stack sec seen)).
Proof.
  induction fuel as [|fu IH]; intros f stack sec seen ND; [cbn; rewrite app_nil_r; exact ND|].
  destruct stack as [|d stack]; [cbn; rewrite app_nil_r; exact ND|].
  rewrite loop_step. rewrite names_app, names_own, app_assoc. apply IH, pick_nodup, ND.
Qed.

Theorem cooked_attrs_names_nodup fuel f d : NoDup (names (cooked_attrs fuel f d)).
Proof. apply (loop_names_nodup fuel f [d] false [] (NoDup_nil _)). Qed.

(* C06: what is brought in from other DIEs is never DW_AT_sibling or DW_AT_declaration *)
Lemma loop_secondary_integrated : forall fuel f stack seen,
  Forall (fun n => should_integrate n = true) (names (cooked_attrs_loop fuel f stack true seen)).
Proof.
  induction fuel as [|fu IH]; intros f stack seen; [constructor|].
  destruct stack as [|d stack]; [constructor|]. rewrite loop_step.
  rewrite names_app, names_own. apply Forall_app. split; [|apply IH].
  apply Forall_map. eapply Forall_impl; [|apply pick_sound]. intros a [_ S]. apply negb_false_iff in S. exact S.
Qed.

(* C06: the DIE's own attributes come first, the inherited ones follow *)
Theorem cooked_attrs_own_then_inherited fu f d :
  exists own inherited,
    cooked_attrs (S fu) f d = own ++ inherited /\
    Forall (fun oa => fst oa = d_off d /\ In (snd oa) (d_attrs d)) own /\
    Forall (fun n => should_integrate n = true) (names inherited).
Proof.
  unfold cooked_attrs. rewrite loop_step. eexists. eexists. split; [reflexivity|].
  split; [|apply loop_secondary_integrated].
  apply Forall_map. eapply Forall_impl; [|apply pick_sound]. intros a [I _]. split; [reflexivity|exact I].
Qed.

Lemma integrate_die_own_complete f d : forall ats seen sp ao out s o sn,
  integrate_die f false d ats seen sp ao = (out, s, o, sn) ->
  forall a, In a ats -> In (a_name a) sn.
Proof.
  intros ats seen sp ao out s o sn H a Ia. rewrite integrate_die_eq in H. injection H as _ _ _ <-.
  apply pick_complete; [exact Ia|reflexivity].
Qed.
