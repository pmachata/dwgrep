(* sext w is lib/TwosComplement's `signed` at m = 2^(8w-1) (sext_signed); its range, the congruence with the stored bits
   and uniqueness come from there.  The other theorems evaluate at_value on classes of (name, form, type context). *)
From Coq Require Import ZArith List Lia.
From Dwgrep Require Import TwosComplement Atval.
Import ListNotations.
Local Open Scope Z_scope.

Lemma sext_signed w bits : (0 < w)%N ->
  2 ^ (8 * Z.of_N w) = 2 * 2 ^ (8 * Z.of_N w - 1) /\ sext w bits = signed (2 ^ (8 * Z.of_N w - 1)) bits.
Proof.
  intros Hw. assert (E : 2 ^ (8 * Z.of_N w) = 2 * 2 ^ (8 * Z.of_N w - 1)) by (rewrite <- Z.pow_succ_r by lia; f_equal; lia).
  split; [exact E|]. unfold sext, signed. rewrite E, (Z.mul_comm 2), Z.div_mul by lia. reflexivity.
Qed.

Theorem sext_twos_complement w bits : (0 < w)%N -> 0 <= bits < 2 ^ (8 * Z.of_N w) ->
  - 2 ^ (8 * Z.of_N w - 1) <= sext w bits < 2 ^ (8 * Z.of_N w - 1) /\
  (sext w bits) mod 2 ^ (8 * Z.of_N w) = bits.
Proof. intros Hw. destruct (sext_signed w bits Hw) as [-> ->]. apply signed_range. Qed.

Theorem sext_unique w bits z : (0 < w)%N -> 0 <= bits < 2 ^ (8 * Z.of_N w) ->
  - 2 ^ (8 * Z.of_N w - 1) <= z < 2 ^ (8 * Z.of_N w - 1) -> z mod 2 ^ (8 * Z.of_N w) = bits -> z = sext w bits.
Proof. intros Hw _ Hz <-. destruct (sext_signed w (z mod 2 ^ (8 * Z.of_N w)) Hw) as [E ->]. rewrite E. symmetry. apply signed_mod, Hz. Qed.

(* DW_AT_const_value of fixed-size data: the signedness follows the encoding of the (peeled) type *)
Theorem const_value_signed w bits enc : enc = ATE_signed \/ enc = ATE_signed_char ->
  at_value AT_const_value (RData w bits) (TEnc enc) = ACst (sext w bits) ADec.
Proof. intros [->| ->]; reflexivity. Qed.

Theorem const_value_unsigned w bits enc :
  enc = ATE_unsigned \/ enc = ATE_unsigned_char \/ enc = ATE_address \/ enc = ATE_UTF ->
  at_value AT_const_value (RData w bits) (TEnc enc) = ACst bits ADec.
Proof. intros [->|[->|[->| ->]]]; reflexivity. Qed.

Theorem const_value_boolean w bits : at_value AT_const_value (RData w bits) (TEnc ATE_boolean) = ACst bits ABool.
Proof. reflexivity. Qed.

Theorem const_value_pointer w bits : at_value AT_const_value (RData w bits) TPointer = ACst bits AAddr.
Proof. reflexivity. Qed.

(* an encoding atval.cc does not interpret (floats, fixed point, decimal) is an error for plain data, never a number *)
Theorem const_value_uninterpreted_encoding w bits enc :
  In enc [ATE_float; ATE_imaginary_float; ATE_complex_float; ATE_signed_fixed; ATE_unsigned_fixed; ATE_packed_decimal; ATE_decimal_float] ->
  at_value AT_const_value (RData w bits) (TEnc enc) = AErr.
Proof. cbn [In]. intros [<-|[<-|[<-|[<-|[<-|[<-|[<-|[]]]]]]]]; reflexivity. Qed.

(* the condition under which at_value hands DW_FORM_sdata / DW_FORM_udata to `dependent`; otherwise the decoded number
   stands as it is, in decimal *)
Definition own_domain (name : N) : bool :=
  (member name enumerated || N.eqb name AT_decl_line || N.eqb name AT_call_line || N.eqb name AT_decl_column || N.eqb name AT_call_column)%bool.

Theorem form_decides_sign name z c : own_domain name = false ->
  at_value name (RSdata z) c = ACst z ADec /\ at_value name (RUdata z) c = ACst z ADec.
Proof. unfold own_domain. intros H. unfold at_value. rewrite H. split; reflexivity. Qed.

Theorem enumerated_in_family name r c z : member name enumerated = true -> uval r = Some z ->
  (forall big b, r <> RBlock big b) -> at_value name r c = ACst z (AFam name).
Proof.
  intros M U _.
  assert (D : dependent name r c = ACst z (AFam name)) by (unfold dependent, unsigned_with; rewrite M, U; reflexivity).
  (* the forms that have an unsigned reading are handed to `dependent` *)
  destruct r; try discriminate U; cbn [at_value]; rewrite ?M; exact D.
Qed.

(* strings byte for byte, references as the DIE they point to, flags as booleans, addresses in the address domain *)
Theorem plain_classes name c :
  (forall b, at_value name (RStr b) c = AStr b) /\ (forall o, at_value name (RRef o) c = ARef o) /\
  (forall b, at_value name (RFlag b) c = ACst (if b then 1 else 0) ABool) /\ (forall n, at_value name (RAddr n) c = ACst n AAddr).
Proof. repeat split. Qed.

Theorem discr_value_is_error w bits c : at_value AT_discr_value (RData w bits) c = AErr.
Proof. reflexivity. Qed.
Theorem unknown_form_is_error name c : at_value name ROther c = AErr.
Proof. reflexivity. Qed.

Lemma block_byte_order b enc : encoding_value (RBlock true b) enc = encoding_value (RBlock false (rev b)) enc.
Proof. unfold encoding_value. rewrite rev_length. reflexivity. Qed.
