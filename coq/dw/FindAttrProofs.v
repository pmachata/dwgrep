(* @AT_x is attribute ?AT_x: the first attribute of a name in what the model of attribute_producer
   yields (Forest.cooked_attrs: an explicit stack, a seen-set) is what the model of find_attribute
   (FindAttr.find_attr: recursion, specification before abstract origin) finds -- for every DIE whose
   chains of DW_AT_specification / DW_AT_abstract_origin end (any length, any shape, shared targets). *)
From Coq Require Import NArith List Bool Lia.
From Dwgrep Require Import ListAux Forest ForestProofs FindAttr.
Import ListNotations.
Import FindAttrM.
Local Open Scope N_scope.

Section One.
  Variable f : forest.
  Variable x : N.

  Definition hasname (oa : N * attr) : bool := a_name (snd oa) =? x.
  Definition links (d : die) : list die :=
    opt_list (first_link f AT_specification (d_attrs d)) ++ opt_list (first_link f AT_abstract_origin (d_attrs d)).

  (* what a DIE contributes under the name x when x has not been seen *)
  Definition own (sec : bool) (d : die) : option (N * attr) :=
    if sec && negb (should_integrate x) then None
    else option_map (pair (d_off d)) (find (fun a => a_name a =? x) (d_attrs d)).

  Definition keep (sp : option die) (t : option die) : option die := match sp with Some _ => sp | None => t end.

  Lemma seen_find l : existsb (N.eqb x) (map a_name l) = if find (fun a => a_name a =? x) l then true else false.
  Proof. rewrite <- existsb_find. induction l as [|a l IH]; [reflexivity|]. cbn [map existsb]. rewrite IH, N.eqb_sym. reflexivity. Qed.

  Lemma own_picked sec d seen :
    find hasname (map (pair (d_off d)) (pick sec seen (d_attrs d))) = if existsb (N.eqb x) seen then None else own sec d.
  Proof.
    rewrite find_map. change (fun a => hasname (d_off d, a)) with (fun a => a_name a =? x). rewrite pick_find. unfold own. fold (skips sec x).
    destruct (skips sec x), (existsb (N.eqb x) seen); reflexivity.
  Qed.

  Lemma integrate_die_x sec d : forall ats seen sp0 ao0 out s o sn,
    integrate_die f sec d ats seen sp0 ao0 = (out, s, o, sn) ->
    s = keep sp0 (first_link f AT_specification ats) /\
    o = keep ao0 (first_link f AT_abstract_origin ats) /\
    find hasname out =
      (if existsb (N.eqb x) seen then None
       else if sec && negb (should_integrate x) then None
       else option_map (pair (d_off d)) (find (fun a => a_name a =? x) ats)) /\
    existsb (N.eqb x) sn =
      (existsb (N.eqb x) seen || (negb (sec && negb (should_integrate x)) && existsb (fun a => a_name a =? x) ats)).
  Proof.
    intros ats seen sp0 ao0 out s o sn H. rewrite integrate_die_eq in H. injection H as <- <- <- <-.
    split; [reflexivity|]. split; [reflexivity|].
    rewrite find_map, existsb_app, seen_find, (existsb_find _ ats). change (fun a => hasname (d_off d, a)) with (fun a => a_name a =? x).
    rewrite pick_find. fold (skips sec x).
    destruct (existsb (N.eqb x) seen), (skips sec x), (find _ ats); split; reflexivity.
  Qed.

  (* the search the producer performs for one name: the same stack discipline, no seen-set *)
  Fixpoint search (fuel : nat) (stack : list die) (sec : bool) : option (N * attr) :=
    match fuel with
    | O => None
    | S fu =>
      match stack with
      | [] => None
      | d :: st => match own sec d with Some r => Some r | None => search fu (links d ++ st) true end
      end
    end.

  Lemma loop_is_search : forall fuel stack sec seen, existsb (N.eqb x) seen = false ->
    find hasname (cooked_attrs_loop fuel f stack sec seen) = search fuel stack sec.
  Proof.
    induction fuel as [|fu IH]; intros stack sec seen NS; [reflexivity|].
    destruct stack as [|d st]; [reflexivity|].
    rewrite loop_step. cbn [search]. rewrite find_app, own_picked, NS.
    destruct (own sec d) eqn:O; [reflexivity|]. apply IH.
    (* nothing of the name x was picked: x is still unseen *)
    pose proof (own_picked sec d seen) as P. rewrite NS, O, find_map in P.
    rewrite existsb_app, NS, seen_find. destruct (find _ (pick sec seen (d_attrs d))); [discriminate P|reflexivity].
  Qed.

  (* the link tree below a DIE, to a depth, in the order the stack discipline visits it *)
  Fixpoint pre (n : nat) (d : die) : list die :=
    d :: match n with O => [] | S k => flat_map (pre k) (links d) end.
  (* ... is at most n links deep *)
  Fixpoint deep (n : nat) (d : die) : Prop :=
    match n with O => links d = [] | S k => Forall (deep k) (links d) end.

  Fixpoint firstown (sec : bool) (l : list die) : option (N * attr) :=
    match l with
    | [] => None
    | d :: r => match own sec d with Some v => Some v | None => firstown true r end
    end.

  Lemma firstown_app l1 l2 : firstown true (l1 ++ l2) = match firstown true l1 with Some r => Some r | None => firstown true l2 end.
  Proof. induction l1 as [|a l1 IH]; [reflexivity|]. cbn [app firstown]. destruct (own true a); [reflexivity|exact IH]. Qed.

  (* each stack entry carries its own remaining depth, because the stack mixes levels of the link tree: the
     generalisation the induction of search_is_firstown needs *)
  Definition pres (ks : list (die * nat)) : list die := flat_map (fun ek => pre (snd ek) (fst ek)) ks.

  Lemma pres_app a b : pres (a ++ b) = pres a ++ pres b.
  Proof. apply flat_map_app. Qed.

  Lemma pres_links k l : pres (map (fun e => (e, k)) l) = flat_map (pre k) l.
  Proof. induction l as [|e l IH]; [reflexivity|]. cbn [map]. unfold pres in *. cbn [flat_map fst snd]. rewrite IH. reflexivity. Qed.

  Lemma pres_cons d k ks : deep k d ->
    let below := map (fun e => (e, pred k)) (links d) in
    pres ((d, k) :: ks) = d :: pres (below ++ ks) /\ Forall (fun ek => deep (snd ek) (fst ek)) below.
  Proof.
    intros D. cbv zeta. rewrite pres_app, pres_links.
    destruct k as [|k]; cbn [deep pre pred] in *.
    - rewrite D. split; [reflexivity|constructor].
    - split; [reflexivity|apply Forall_map; exact D].
  Qed.

  Lemma search_is_firstown : forall fuel ks sec,
    Forall (fun ek => deep (snd ek) (fst ek)) ks -> (length (pres ks) < fuel)%nat ->
    search fuel (map fst ks) sec = firstown sec (pres ks).
  Proof.
    induction fuel as [|fu IH]; intros ks sec Hd Hf; [lia|].
    destruct ks as [|[d k] ks]; [reflexivity|]. apply Forall_cons_iff in Hd. destruct Hd as [Hd Hks].
    destruct (pres_cons d k ks Hd) as [E Hb]. rewrite E in *.
    cbn [map fst search firstown]. rewrite <- IH.
    - rewrite map_app, map_map, map_id. reflexivity.
    - apply Forall_app. split; assumption.
    - cbn [length] in Hf. lia.
  Qed.

  Lemma firstown_true l : firstown true l = if should_integrate x then firstown false l else None.
  Proof.
    unfold firstown, own. destruct (should_integrate x); [destruct l; reflexivity|].
    induction l as [|d r IH]; [reflexivity|exact IH].
  Qed.

  Lemma find_attr_S k d : find_attr (S k) f d x =
    match own false d with
    | Some v => Some v
    | None => if should_integrate x then
                match (match first_link f AT_specification (d_attrs d) with Some t => find_attr k f t x | None => None end) with
                | Some r => Some r
                | None => match first_link f AT_abstract_origin (d_attrs d) with Some t => find_attr k f t x | None => None end
                end
              else None
    end.
  Proof. cbn [find_attr]. unfold own. destruct (find _ (d_attrs d)); reflexivity. Qed.

  Lemma find_attr_is_firstown : forall k d, find_attr (S k) f d x = firstown false (pre k d).
  Proof.
    induction k as [|k IH]; intros d; rewrite find_attr_S; cbn [pre firstown]; destruct (own false d); try reflexivity.
    - destruct (should_integrate x), (first_link f AT_specification (d_attrs d)), (first_link f AT_abstract_origin (d_attrs d)); reflexivity.
    - unfold links. rewrite flat_map_app, firstown_app.
      destruct (first_link f AT_specification (d_attrs d)) as [t|], (first_link f AT_abstract_origin (d_attrs d)) as [u|];
        cbn [opt_list flat_map app]; rewrite ?app_nil_r, ?firstown_true, ?IH; destruct (should_integrate x); reflexivity.
  Qed.

  Theorem atval_is_first_attribute k d fuel :
    deep k d -> (length (pre k d) < fuel)%nat ->
    find hasname (cooked_attrs fuel f d) = find_attr (S k) f d x.
  Proof.
    intros Hd Hf. unfold cooked_attrs. rewrite loop_is_search by reflexivity.
    rewrite find_attr_is_firstown, <- (app_nil_r (pre k d)) in *.
    apply (search_is_firstown fuel [(d, k)] false); [constructor; [exact Hd|constructor]|exact Hf].
  Qed.
End One.
