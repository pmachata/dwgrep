(* The walk with a stack of parents visits exactly the pre-order of the tree: every DIE once, parents before
   children, siblings in order - for any tree, given fuel for its size. *)
From Coq Require Import List Lia.
From Dwgrep Require Import Forest ForestProofs Iter.
Import ListNotations.
Import IterM.

(* what is still to come from a position: the DIE's subtree, its right siblings' subtrees, then level by level
   the right siblings of the parents *)
Fixpoint rest_of (ctx : list (die * list die)) : list die :=
  match ctx with
  | [] => []
  | (_, prs) :: ctx' => flat_map preorder prs ++ rest_of ctx'
  end.
Definition todo (p : pos) : list die :=
  let '(d, rs, ctx) := p in preorder d ++ flat_map preorder rs ++ rest_of ctx.

Lemma climb_todo rs ctx : match climb rs ctx with
                          | Some q => todo q = flat_map preorder rs ++ rest_of ctx
                          | None => flat_map preorder rs ++ rest_of ctx = []
                          end.
Proof.
  revert rs. induction ctx as [|[p prs] ctx IH]; intros rs; destruct rs as [|s rs]; cbn [climb].
  - reflexivity.
  - cbn [todo flat_map]. rewrite <- app_assoc. reflexivity.
  - apply IH.
  - cbn [todo flat_map]. rewrite <- app_assoc. reflexivity.
Qed.

Lemma next_todo p : let '(d, _, _) := p in
  match next p with
  | Some q => todo p = d :: todo q
  | None => todo p = [d]
  end.
Proof.
  destruct p as [[d rs] ctx]. unfold next.
  destruct (d_kids d) as [|k ks] eqn:K.
  - pose proof (climb_todo rs ctx) as C. cbn [todo]. rewrite preorder_eq, K. cbn [flat_map app].
    destruct (climb rs ctx) as [q|]; rewrite C; reflexivity.
  - cbn [todo]. rewrite (preorder_eq d), K. cbn [flat_map rest_of app]. rewrite <- !app_assoc. reflexivity.
Qed.

Lemma walk_is_todo : forall fuel p, (length (todo p) <= fuel)%nat -> walk fuel p = todo p.
Proof.
  induction fuel as [|fu IH]; intros p L.
  - destruct p as [[d rs] ctx]. cbn [todo] in L. rewrite preorder_eq in L. cbn [app length] in L. lia.
  - pose proof (next_todo p) as N. destruct p as [[d rs] ctx]. cbn [walk].
    destruct (next (d, rs, ctx)) as [q|].
    + rewrite N. f_equal. apply IH. rewrite N in L. cbn [length] in L. lia.
    + rewrite N. reflexivity.
Qed.

Theorem unit_walk_is_preorder fuel u : (length (unit_dies u) <= fuel)%nat -> unit_walk fuel u = unit_dies u.
Proof.
  unfold unit_walk, unit_dies. destruct (u_root u) as [r|]; [|reflexivity].
  intros L. rewrite walk_is_todo; cbn [todo flat_map rest_of]; rewrite ?app_nil_r; [reflexivity|exact L].
Qed.

Lemma unit_dies_le f u : In u f -> (length (unit_dies u) <= length (raw_entries f))%nat.
Proof.
  intros I. unfold raw_entries. induction f as [|v f IH]; [destruct I|].
  cbn [flat_map]. rewrite app_length. destruct I as [->|I]; [lia|]. specialize (IH I). lia.
Qed.

Theorem walk_all_is_raw_entries f : walk_all f = raw_entries f.
Proof.
  unfold walk_all. pose proof (unit_dies_le f) as L. revert L. generalize (length (raw_entries f)). intros n L.
  unfold raw_entries. rewrite !flat_map_concat_map. f_equal. apply map_ext_in.
  intros u Iu. apply unit_walk_is_preorder, L, Iu.
Qed.

(* ... and the stack of parents is right at every step: the DIE at hand and its right siblings are the tail of
   the children of the DIE on top of the stack, and so on upwards *)
Fixpoint zip_ok (d : die) (rs : list die) (ctx : list (die * list die)) : Prop :=
  match ctx with
  | [] => True
  | (q, qrs) :: ctx' => (exists ls, d_kids q = ls ++ d :: rs) /\ zip_ok q qrs ctx'
  end.

Lemma climb_ok rs ctx d0 : zip_ok d0 rs ctx -> forall q, climb rs ctx = Some q -> let '(d, rs', ctx') := q in zip_ok d rs' ctx'.
Proof.
  revert rs d0. induction ctx as [|[p prs] ctx IH]; intros rs d0 Z q C; destruct rs as [|s rs]; cbn [climb] in C; try discriminate.
  - inversion C. exact I.
  - destruct Z as [_ Z]. exact (IH prs p Z q C).
  - inversion C. destruct Z as [[ls E] Z]. split; [|exact Z].
    exists (ls ++ [d0]). rewrite E, <- app_assoc. reflexivity.
Qed.

Theorem next_keeps_stack p q : (let '(d, rs, ctx) := p in zip_ok d rs ctx) -> next p = Some q ->
  let '(d', rs', ctx') := q in zip_ok d' rs' ctx'.
Proof.
  destruct p as [[d rs] ctx]. intros Z N. unfold next in N.
  destruct (d_kids d) as [|k ks] eqn:K.
  - exact (climb_ok rs ctx d Z q N).
  - inversion N. split; [exists []; exact K|exact Z].
Qed.

Corollary top_of_stack_is_parent d rs q qrs ctx : zip_ok d rs ((q, qrs) :: ctx) -> In d (d_kids q).
Proof. intros [[ls E] _]. rewrite E. apply in_or_app. right. left. reflexivity. Qed.
