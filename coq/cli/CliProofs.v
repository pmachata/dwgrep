(* The driver's loop visits every combination of argument values exactly once,
   in row-major order, and its exit status / output obey the grep-like
   contract -- for every option set, argument lists and library behaviour. *)
From Coq Require Import NArith List Bool Arith Lia.
From Dwgrep Require Import ListAux Cli.
Import ListNotations.

(* all index vectors, row-major: the last position varies fastest *)
Fixpoint all_idx (sizes : list nat) : list (list nat) :=
  match sizes with
  | [] => [[]]
  | n :: ns => flat_map (fun i => map (cons i) (all_idx ns)) (seq 0 n)
  end.

Definition zeros (sizes : list nat) : list nat := map (fun _ => O) sizes.

Inductive Steps (sizes : list nat) : list nat -> list (list nat) -> Prop :=
| StLast a : bump sizes a = None -> Steps sizes a [a]
| StNext a b l : bump sizes a = Some b -> Steps sizes b l -> Steps sizes a (a :: l).

Lemma bump_length sizes : forall idx idx', length idx = length sizes ->
  bump sizes idx = Some idx' -> length idx' = length sizes.
Proof.
  induction sizes as [|n ns IH]; intros [|i t] idx' L H; cbn [bump length] in *; try discriminate.
  destruct (bump ns t) as [t'|] eqn:B.
  - inversion H. cbn [length]. f_equal. apply (IH t); [lia|exact B].
  - destruct (Nat.ltb (S i) n); [|discriminate]. inversion H. cbn [length]. rewrite map_length. lia.
Qed.

Lemma Steps_length sizes a l : Steps sizes a l -> length a = length sizes ->
  Forall (fun x => length x = length sizes) l.
Proof.
  induction 1 as [a H|a b l H S IH]; intros L.
  - constructor; [exact L|constructor].
  - constructor; [exact L|]. apply IH. eapply bump_length; eauto.
Qed.

(* one block: the first position stays at i while the rest walks through l',
   then the walk continues with L (the later blocks) *)
Lemma Steps_block n ns i t l' L :
  Steps ns t l' -> length t = length ns ->
  (if Nat.ltb (S i) n then Steps (n :: ns) (S i :: zeros ns) L else L = []) ->
  Steps (n :: ns) (i :: t) (map (cons i) l' ++ L).
Proof.
  intros S. revert L. induction S as [a H|a b l H S IH]; intros L Len HL.
  - cbn [map app]. destruct (Nat.ltb (S i) n) eqn:E.
    + apply StNext with (b := S i :: zeros ns); [|exact HL].
      cbn [bump]. rewrite H, E. rewrite (map_const_length O a ns Len). reflexivity.
    + subst L. apply StLast. cbn [bump]. rewrite H, E. reflexivity.
  - cbn [map app]. apply StNext with (b := i :: b).
    + cbn [bump]. rewrite H. reflexivity.
    + apply IH; [eapply bump_length; eauto|exact HL].
Qed.

(* blocks i, i+1, ..., n-1 *)
Lemma Steps_blocks n ns A : Steps ns (zeros ns) A ->
  forall k i, i + S k = n ->
  Steps (n :: ns) (i :: zeros ns) (flat_map (fun j => map (cons j) A) (seq i (S k))).
Proof.
  intros SA. induction k as [|k IH]; intros i E.
  - apply Steps_block; [exact SA|apply map_length|].
    assert (Nat.ltb (S i) n = false) as F by (apply Nat.ltb_ge; lia). rewrite F. reflexivity.
  - change (seq i (S (S k))) with (i :: seq (S i) (S k)). cbn [flat_map].
    apply Steps_block; [exact SA|apply map_length|].
    assert (Nat.ltb (S i) n = true) as T by (apply Nat.ltb_lt; lia). rewrite T.
    apply IH. lia.
Qed.

Theorem odometer_walk sizes : Forall (fun n => 0 < n) sizes ->
  Steps sizes (zeros sizes) (all_idx sizes).
Proof.
  induction 1 as [|n ns Hn F IH].
  - apply StLast. reflexivity.
  - destruct n as [|k]; [lia|].
    apply (Steps_blocks (S k) ns (all_idx ns) IH k 0). lia.
Qed.

Lemma all_idx_length sizes : length (all_idx sizes) = product sizes.
Proof.
  induction sizes as [|n ns IH]; [reflexivity|].
  cbn [all_idx product fold_right]. fold (product ns). rewrite <- IH.
  generalize (all_idx ns) as A. intros A. generalize 0 as s.
  induction n as [|n IHn]; intros s; cbn [seq flat_map]; [reflexivity|].
  rewrite app_length, map_length, IHn. reflexivity.
Qed.

Section Loop.
Variable o : opts.
Variable with_header first_is_file : bool.
Variable args : list (list val).
Variable exec : list val -> exec_res.

Definition step_on (idx : list nat) (st : lstate) : lstate * bool :=
  let cur := pick args idx in
  run_one o with_header (header_from first_is_file args cur) (exec cur) st.

Fixpoint fold_run (l : list (list nat)) (st : lstate) : outcome :=
  match l with
  | [] => mkout (l_out st) (l_err st) (if l_errors st then 2%N else if l_match st then 0%N else 1%N)
  | idx :: l' =>
    let '(st', stop) := step_on idx st in
    if stop then mkout [] (l_err st') 0%N else fold_run l' st'
  end.

Lemma main_loop_fold idx l : Steps (map (@length val) args) idx l ->
  forall fuel st, length l <= fuel ->
  main_loop fuel o with_header first_is_file args exec idx st = Some (fold_run l st).
Proof.
  induction 1 as [a H|a b l H S IH]; intros fuel st Hf; (destruct fuel as [|f]; [cbn in Hf; lia|]);
    cbn [main_loop fold_run]; unfold step_on; destruct (run_one _ _ _ _ _) as [st' stop];
    (destruct stop; [reflexivity|]); rewrite H; [reflexivity|apply IH; cbn in Hf; lia].
Qed.

End Loop.

Lemma product_pos sizes : Forall (fun n => 0 < n) sizes -> 0 < product sizes.
Proof. induction 1; cbn; [lia|apply Nat.mul_pos_pos; assumption]. Qed.

(* fuel and start vector as [cli] passes them *)
Lemma main_loop_all o wh fif args exec st : Forall (fun a => a <> []) args ->
  let sizes := map (@length val) args in
  0 < product sizes /\
  main_loop (S (product sizes)) o wh fif args exec (map (fun _ => O) args) st
  = Some (fold_run o wh fif args exec (all_idx sizes) st).
Proof.
  intros NE sizes.
  assert (P : Forall (fun n => 0 < n) sizes).
  { apply Forall_map. eapply Forall_impl; [|exact NE]. intros [|x a] Ha; [congruence|cbn; lia]. }
  split; [apply product_pos; exact P|].
  replace (map (fun _ => O) args) with (zeros sizes) by apply map_map.
  apply main_loop_fold; [apply odometer_walk; exact P|rewrite all_idx_length; lia].
Qed.

Definition effective_args (files : list (N * fileres)) (args : list (list val)) : list (list val) :=
  match files with [] => args | _ => opened files :: args end.

Definition header_on (o : opts) (args' : list (list val)) : bool :=
  if o_nohdr o then false else o_withhdr o || Nat.ltb 1 (product (map (@length val) args')).

Definition initial_errors (o : opts) (files : list (N * fileres)) : list err_item :=
  if o_nomsg o then [] else open_errors files.

(* the whole program, once the query compiles ([true]) and some file opened
   (or none was named), no argument being without values *)
Theorem cli_is_fold o files args exec :
  let args' := effective_args files args in
  Forall (fun a => a <> []) args' ->
  cli o true files args exec =
  Some (fold_run o (header_on o args') (negb (match files with [] => true | _ => false end)) args' exec
                 (all_idx (map (@length val) args')) (mkls [] (initial_errors o files) false false)).
Proof.
  intros args' NE. unfold cli.
  assert (E : (if negb (match files with [] => true | _ => false end) then opened files :: args else args) = args')
    by (destruct files; reflexivity).
  assert (O : negb (match files with [] => true | _ => false end) && (match opened files with [] => true | _ => false end) = false).
  { destruct files as [|f fs]; [reflexivity|].
    pose proof (Forall_inv (NE : Forall _ (opened (f :: fs) :: args))) as ON.
    destruct (opened (f :: fs)); [congruence|reflexivity]. }
  rewrite O, E. destruct (main_loop_all o (header_on o args') (negb (match files with [] => true | _ => false end))
    args' exec (mkls [] (initial_errors o files) false false) NE) as [Pos ML].
  destruct (Nat.eqb_spec (product (map (@length val) args')) 0); [lia|exact ML].
Qed.

Definition ex_results (x : exec_res) : list record := match x with ExecRes r _ => r end.
Definition ex_raised (x : exec_res) : bool := match x with ExecRes _ b => b end.
Definition has_results (x : exec_res) : bool := negb (match ex_results x with [] => true | _ => false end).

Section Contract.
Variable o : opts.
Variable wh fif : bool.
Variable args : list (list val).
Variable exec : list val -> exec_res.

Let at_ (idx : list nat) : exec_res := exec (pick args idx).
Let hdr (idx : list nat) : list val := header_from fif args (pick args idx).
Let final (st : lstate) : N := if l_errors st then 2%N else if l_match st then 0%N else 1%N.

(* what one combination adds to stdout and to stderr when -q is not given *)
Definition emits (i : list nat) : list out_item :=
  if o_count o then [OutCount (if wh then Some (hdr i) else None) (N.of_nat (length (ex_results (at_ i))))]
  else flat_map (print_record wh (hdr i)) (ex_results (at_ i)).
Definition complains (i : list nat) : list err_item :=
  if o_nomsg o then [] else if ex_raised (at_ i) then [ErrExec (hdr i)] else [].

Lemma step_on_loud i st : o_quiet o = false ->
  step_on o wh fif args exec i st =
  (mkls (l_out st ++ emits i) (l_err st ++ complains i)
        (l_errors st || ex_raised (at_ i)) (l_match st || has_results (at_ i)), false).
Proof.
  intros Q. unfold step_on, run_one, emits, complains, has_results, ex_raised, ex_results, at_, hdr.
  destruct (exec (pick args i)) as [rs rz]. rewrite Q.
  destruct (o_count o), (o_nomsg o), rz; cbn [andb orb negb app]; rewrite ?app_nil_r; reflexivity.
Qed.

(* without -q nothing stops the loop early, and the outcome is a sum over the
   combinations: the laws of Properties_C19.v read their part off it *)
Lemma fold_run_loud l : o_quiet o = false -> forall st,
  fold_run o wh fif args exec l st =
  mkout (l_out st ++ flat_map emits l) (l_err st ++ flat_map complains l)
        (if l_errors st || existsb (fun i => ex_raised (at_ i)) l then 2%N
         else if l_match st || existsb (fun i => has_results (at_ i)) l then 0%N else 1%N).
Proof.
  intros Q. induction l as [|i l IH]; intros st; cbn [fold_run flat_map existsb].
  - rewrite !app_nil_r, !orb_false_r. reflexivity.
  - rewrite step_on_loud, IH by exact Q. cbn [l_out l_err l_errors l_match].
    rewrite !orb_assoc, <- !app_assoc. reflexivity.
Qed.

Lemma step_on_quiet i st : o_quiet o = true ->
  step_on o wh fif args exec i st =
  if has_results (at_ i) then (st, true)
  else (mkls (l_out st) (l_err st ++ complains i) (l_errors st) (l_match st), false).
Proof.
  intros Q. unfold step_on, run_one, complains, has_results, ex_raised, ex_results, at_, hdr.
  destruct (exec (pick args i)) as [rs rz]. rewrite Q. destruct rs; [|reflexivity].
  destruct (o_count o), (o_nomsg o), rz; cbn [andb orb negb app]; rewrite ?app_nil_r, ?orb_false_r; reflexivity.
Qed.

Lemma fold_run_quiet l : o_quiet o = true -> forall st, exists errs,
  fold_run o wh fif args exec l st =
  if existsb (fun i => has_results (at_ i)) l then mkout [] errs 0%N
  else mkout (l_out st) errs (final st).
Proof.
  intros Q. induction l as [|i l IH]; intros st; cbn [fold_run existsb].
  - exists (l_err st). reflexivity.
  - rewrite step_on_quiet by exact Q. destruct (has_results (at_ i)); [exists (l_err st); reflexivity|].
    exact (IH (mkls (l_out st) (l_err st ++ complains i) (l_errors st) (l_match st))).
Qed.

(* a record printed without header takes one item per value and, if it has
   more than one value, a separator *)
Corollary count_matches_records i : length (flat_map (print_record false (hdr i)) (ex_results (at_ i)))
  = (fold_right (fun r n => length r + (if Nat.ltb 1 (length r) then 1 else 0) + n) 0 (ex_results (at_ i)))%nat.
Proof.
  induction (ex_results (at_ i)) as [|r rs IH]; [reflexivity|].
  cbn [flat_map fold_right]. rewrite app_length, IH. unfold print_record. cbn [app].
  rewrite app_length, map_length. destruct (Nat.ltb 1 (length r)); cbn [length]; lia.
Qed.

End Contract.

Theorem header_rule o args' :
  header_on o args' = true <-> o_nohdr o = false /\ (o_withhdr o = true \/ 1 < product (map (@length val) args')).
Proof.
  unfold header_on. destruct (o_nohdr o); [split; [discriminate|intros [? _]; discriminate]|].
  rewrite orb_true_iff, Nat.ltb_lt. tauto.
Qed.

(* pick on the row-major enumeration is the cartesian product, last argument fastest *)
Fixpoint combos (args : list (list val)) : list (list val) :=
  match args with
  | [] => [[]]
  | a :: rest => flat_map (fun v => map (cons v) (combos rest)) a
  end.

Lemma seq_nth_map (a : list val) : map (fun i => nth i a 0%N) (seq 0 (length a)) = a.
Proof.
  induction a as [|x a IH]; [reflexivity|]. cbn [length seq map nth]. f_equal.
  rewrite <- seq_shift, map_map. exact IH.
Qed.

Theorem row_major args : map (pick args) (all_idx (map (@length val) args)) = combos args.
Proof.
  induction args as [|a rest IH]; [reflexivity|].
  cbn [map all_idx combos].
  transitivity (flat_map (fun v => map (cons v) (combos rest)) (map (fun i => nth i a 0%N) (seq 0 (length a))));
    [|rewrite seq_nth_map; reflexivity].
  rewrite map_flat_map, flat_map_map'. apply flat_map_ext. intros i.
  rewrite map_map. rewrite <- IH, map_map. reflexivity.
Qed.
