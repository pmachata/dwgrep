(* More of coverage.cc: is_covered, is_overlap, remove and intersect are the
   set-theoretic predicates and operations on the denoted set of addresses. *)
From Coq Require Import ZArith List Bool Lia.
From Dwgrep Require Import CovModel CovProofs.
Import ListNotations.
Local Open Scope Z_scope.

Lemma nth_error_split (pre post : cov) : nth_error (pre ++ post) (length pre) = hd_error post.
Proof. rewrite nth_error_app2, Nat.sub_diag by lia. reflexivity. Qed.

(* is_covered and is_overlap look at the run found and at the one before it:
   `match i with S j => ... (nth_error c j) ... | O => false end` with i = find c s *)
Lemma prev_run {B} (pre' : cov) p post (f : rng -> B) (d : B) :
  match length (pre' ++ [p]) with
  | S j => match nth_error ((pre' ++ [p]) ++ post) j with Some q => f q | None => d end
  | O => d
  end = f p.
Proof.
  rewrite app_length, Nat.add_1_r, <- app_assoc, nth_error_app2, Nat.sub_diag by lia. reflexivity.
Qed.

(* Whether [s, s+l) lies in the denoted set shows at two addresses: s, and the
   end of the run that holds s (no run is adjacent to the next). *)
Theorem is_covered_ok c s l : Inv c -> 0 <= s -> 0 < l -> s + l < TOP ->
  (is_covered c s l = true <-> forall x, s <= x < s + l -> mem c x).
Proof.
  intros Hi Hs Hl Htop. setoid_rewrite mem_memb.
  unfold is_covered. rewrite nil_case by (intros ->; reflexivity).
  destruct (find_view c s Hi) as (pre & post & _ & _ & Ec & -> & Ipre & Hhi & Ipost & V).
  rewrite (wadd_small s l) by lia.
  pose proof (fun x => memb_below_hi _ _ x Ipre) as PreLt.
  pose proof (fun x => inv_memb_lo _ _ x Ipost) as PostGe.
  (* what the look at the previous run decides, when no run starts at s *)
  assert (PREV : (forall x, memb post x = true -> s < x) ->
            (match length pre with
             | S j => match nth_error c j with Some q => s + l <=? rend q | None => false end
             | O => false end = true <-> forall x, s <= x < s + l -> memb c x = true)).
  { intros PostGt. rewrite Ec. destruct V as [->|(pre' & p & -> & Ipre' & Hp & Ps & P2 & P3)].
    - split; [discriminate|]. intros H. specialize (H s). specialize (PostGt s). cbn [app] in *. lia.
    - rewrite (prev_run pre' p post (fun q => s + l <=? rend q)). rewrite hi_of_app_one in *.
      rewrite rend_small by lia. clear PreLt. pose proof (fun x => memb_below_hi _ _ x Ipre') as PreLt.
      split.
      + intros L x Hx. rewrite memb_app, memb_snoc. lia.
      + (* s lies in p, and the end of p, which is not in the set, lies outside the interval *)
        intros H. assert (s < fst p + snd p) as Sp.
        { specialize (H s). rewrite memb_app, memb_snoc in H. specialize (PostGt s). specialize (PreLt s). lia. }
        specialize (H (fst p + snd p)). rewrite memb_app, memb_snoc in H.
        specialize (PreLt (fst p + snd p)). specialize (PostGe (fst p + snd p)). lia. }
  rewrite Ec at 1. rewrite nth_error_split. destruct post as [|r post']; cbn [hd_error].
  { apply PREV. discriminate. }
  pose proof (fun x => inv_memb_lo _ _ x (inv_head _ _ _ Ipost)) as Lo. destruct Ipost as (R1 & R2 & R3 & R4).
  unfold rstart. destruct (s >=? fst r) eqn:G.
  - clear PREV. rewrite rend_small by lia. pose proof (fun x => inv_memb_lo _ _ x R4) as Lo'. split.
    + intros L x Hx. rewrite Ec, memb_app, memb_cons. lia.
    + intros H. specialize (H (fst r + snd r)). rewrite Ec, memb_app, memb_cons in H.
      specialize (PreLt (fst r + snd r)). specialize (Lo' (fst r + snd r)). lia.
  - apply PREV. clear PREV. intros x M. specialize (Lo x M). lia.
Qed.

Lemma overlaps_eq s l r : 0 < l -> 0 < snd r -> fst r + snd r < TOP ->  0 <= fst r ->
  overlaps s (s + l) r = (s <? fst r + snd r) && (fst r <? s + l).
Proof. intros. unfold overlaps, rstart. rewrite rend_small by lia. lia. Qed.

Theorem is_overlap_ok c s l : Inv c -> 0 <= s -> 0 < l -> s + l < TOP ->
  (is_overlap c s l = true <-> exists x, s <= x < s + l /\ mem c x).
Proof.
  intros Hi Hs Hl Htop. setoid_rewrite mem_memb.
  unfold is_overlap. replace (l =? 0) with false by lia. rewrite nil_case by (intros ->; reflexivity).
  destruct (find_view c s Hi) as (pre & post & _ & _ & Ec & -> & Ipre & Hhi & Ipost & V).
  rewrite (wadd_small s l) by lia.
  (* the previous run overlaps iff some address of the interval lies in pre *)
  assert (PREV : match length pre with
                 | S j => match nth_error c j with Some q => overlaps s (s + l) q | None => false end
                 | O => false end = true <-> exists x, s <= x < s + l /\ memb pre x = true).
  { rewrite Ec. destruct V as [->|(pre' & p & -> & Ipre' & Hp & Ps & P2 & P3)].
    - split; [discriminate | intros [x [_ M]]; discriminate].
    - rewrite (prev_run pre' p post), overlaps_eq by (assumption || lia).
      pose proof (fun x => memb_below_hi _ _ x Ipre') as PreLt. split.
      + exists s. rewrite memb_snoc. lia.
      + intros [x [X M]]. rewrite memb_snoc in M. specialize (PreLt x). lia. }
  rewrite Ec at 1. rewrite nth_error_split. destruct post as [|r post']; cbn [hd_error].
  { rewrite PREV, Ec, app_nil_r. reflexivity. }
  pose proof (fun x => inv_memb_lo _ _ x (inv_head _ _ _ Ipost)) as Lo. pose proof Ipost as (R1 & R2 & R3 & R4).
  rewrite overlaps_eq by (assumption || lia). destruct ((s <? fst r + snd r) && (fst r <? s + l)) eqn:O.
  - clear PREV. split; [intros _ | reflexivity]. exists (fst r). split; [lia|].
    rewrite Ec, memb_app, (proj1 (memb_run_ends _ _ _ Ipost)). apply orb_true_r.
  - (* a run after r that meets the interval would start above r, which then meets it too *)
    rewrite PREV. clear PREV. split; intros [x [X M]]; exists x; (split; [exact X|]); rewrite Ec, memb_app in *.
    + rewrite M. reflexivity.
    + specialize (Lo x). lia.
Qed.

Lemma cut_next_spec : forall post lo a_end ov post',
  inv_from lo post -> 0 <= lo -> a_end < TOP ->
  cut_next a_end post = (ov, post') ->
  inv_from (Z.max lo a_end) post' /\
  (forall x, memb post' x = memb post x && (a_end <=? x)) /\
  (ov = true <-> exists x, memb post x = true /\ x < a_end).
Proof.
  induction post as [|r post IH]; intros lo a_end ov post' Hi Hlo Ha H; cbn [cut_next] in H.
  - inversion H. split; [exact I|]. split; [reflexivity|].
    split; [discriminate | intros [x [M _]]; discriminate].
  - pose proof (fun x => inv_memb_lo _ _ x (inv_head _ _ _ Hi)) as Lo. pose proof Hi as (H1 & H2 & H3 & H4).
    pose proof (fun x => inv_memb_lo _ _ x H4) as Lo'.
    unfold rstart in H. rewrite rend_small in H by lia.
    destruct (fst r <? a_end) eqn:L; [destruct (a_end >=? fst r + snd r) eqn:G2|].
    + destruct (cut_next a_end post) as [ov2 rest] eqn:E. inversion H; subst.
      destruct (IH (fst r + snd r + 1) a_end ov2 post' H4 ltac:(lia) Ha E) as (I1 & I3 & _).
      split; [eapply inv_weaken; [|exact I1]; lia|]. split.
      * intros x. rewrite I3, memb_cons. lia.
      * split; [intros _; exists (fst r); split; [apply (memb_run_ends _ _ _ Hi) | lia] | reflexivity].
    + inversion H; subst. rewrite wsub_small by lia. split; [|split].
      * cbn [inv_from fst snd]. repeat split; try lia. eapply inv_weaken; [|exact H4]. lia.
      * intros x. rewrite !memb_cons. cbn [fst snd]. specialize (Lo' x). lia.
      * split; [intros _; exists (fst r); split; [apply (memb_run_ends _ _ _ Hi) | lia] | reflexivity].
    + inversion H; subst. split; [|split].
      * repeat split; auto; lia.
      * intros x. specialize (Lo x). destruct (memb (r :: post) x); lia.
      * split; [discriminate|]. intros [x [M Hx]]. specialize (Lo x M). lia.
Qed.

Lemma mem_post_ge (pre post : cov) x : inv_from (hi_of 0 pre) post -> mem post x -> hi_of 0 pre <= x.
Proof. rewrite mem_memb. apply inv_memb_lo. Qed.

Lemma remove_memb c s l ov c' : Inv c -> 0 <= s -> 0 < l -> s + l < TOP -> remove c s l = (ov, c') ->
  Inv c' /\
  (forall x, memb c' x = memb c x && negb ((s <=? x) && (x <? s + l))) /\
  (ov = true <-> exists x, s <= x < s + l /\ memb c x = true).
Proof.
  intros Hi Hs Hl Htop. unfold remove. replace (l =? 0) with false by lia.
  rewrite nil_case by (intros ->; reflexivity).
  destruct (find_view c s Hi) as (pre & post & -> & -> & Ec & _ & Ipre & Hhi & Ipost & V).
  rewrite (wadd_small s l) by lia.
  destruct (cut_next (s + l) post) as [ovn post'] eqn:EC.
  destruct (cut_next_spec post _ (s + l) ovn post' Ipost ltac:(lia) Htop EC) as (C1 & C3 & C4).
  pose proof (fun x => inv_memb_lo _ _ x Ipost) as PostGe.
  (* when nothing of pre reaches s: what cut_next leaves and says is the answer *)
  assert (Next : (forall x, memb pre x = true -> x < s) -> (ovn, pre ++ post') = (ov, c') ->
            Inv c' /\
            (forall x, memb c' x = memb c x && negb ((s <=? x) && (x <? s + l))) /\
            (ov = true <-> exists x, s <= x < s + l /\ memb c x = true)).
  { intros PreLt [= <- <-]. rewrite C4. clear C4. split; [|split].
    - apply inv_app. split; [exact Ipre|]. eapply inv_weaken; [|exact C1]. lia.
    - intros x. rewrite Ec, !memb_app, C3. specialize (PreLt x). specialize (PostGe x). lia.
    - split; intros [x X]; exists x; rewrite Ec, memb_app in *;
        specialize (PreLt x); specialize (PostGe x); lia. }
  clear C4.
  destruct V as [->|(pre' & p & -> & Ipre' & Hp & Ps & P2 & P3)]; [apply Next; discriminate|].
  rewrite last_opt_app_one, removelast_last. rewrite hi_of_app_one in *.
  pose proof (fun x => memb_below_hi _ _ x Ipre') as PreLt.
  unfold rstart. rewrite rend_small by lia.
  destruct (s <? fst p + snd p) eqn:Lt.
  - (* s falls inside p: its head [fst p, s) stays *)
    clear Next. replace (s =? fst p) with false by lia. rewrite (wsub_small s (fst p)) by lia.
    assert (Hit : exists x, s <= x < s + l /\ memb c x = true) by (exists s; rewrite Ec, memb_app, memb_snoc; lia).
    destruct (s + l <? fst p + snd p) eqn:Hole.
    + (* and so does its tail [s + l, end of p), added back *)
      rewrite wsub_small by lia. intros [= <- <-].
      destruct (add_memb (pre' ++ (fst p, s - fst p) :: post) (s + l) (fst p + snd p - (s + l))) as [A1 A2]; try lia.
      { apply (inv_insert _ _ _ _ Ipre' Ipost); cbn [fst snd]; lia. }
      split; [exact A1|]. split; [|split; [intros _; exact Hit | reflexivity]].
      intros x. rewrite A2, Ec, (memb_app (pre' ++ [p])), memb_snoc, memb_app, memb_cons. cbn [fst snd].
      specialize (PreLt x). specialize (PostGe x). lia.
    + replace (s - fst p =? 0) with false by lia. intros [= <- <-]. split; [|split; [|split; [intros _; exact Hit | reflexivity]]].
      * apply (inv_insert _ _ _ _ Ipre' C1); cbn [fst snd]; lia.
      * intros x. rewrite Ec, (memb_app (pre' ++ [p])), memb_snoc, memb_app, memb_cons, C3. cbn [fst snd].
        specialize (PreLt x). specialize (PostGe x). lia.
  - (* p ends before s *)
    apply Next. clear Next. intros x. rewrite memb_snoc. specialize (PreLt x). lia.
Qed.

Theorem remove_ok c s l : Inv c -> 0 <= s -> 0 < l -> s + l < TOP ->
  Inv (snd (remove c s l)) /\
  (forall x, mem (snd (remove c s l)) x <-> mem c x /\ ~ (s <= x < s + l)) /\
  (fst (remove c s l) = true <-> exists x, s <= x < s + l /\ mem c x).
Proof.
  intros Hi Hs Hl Htop. destruct (remove c s l) as [ov c'] eqn:E.
  destruct (remove_memb c s l ov c' Hi Hs Hl Htop E) as (A & B & C).
  split; [exact A|]. split.
  - intros x. rewrite !mem_memb, B. lia.
  - rewrite C. split; intros [x X]; exists x; rewrite mem_memb in *; exact X.
Qed.

Lemma inter_next_spec : forall post lo a_end acc,
  inv_from lo post -> 0 <= lo -> 0 <= a_end < TOP -> Inv acc ->
  Inv (inter_next a_end post acc) /\
  (forall x, memb (inter_next a_end post acc) x = memb acc x || memb post x && (x <? a_end)).
Proof.
  induction post as [|r post IH]; intros lo a_end acc Hi Hlo Ha Hacc; cbn [inter_next].
  - split; [exact Hacc|]. intros x. apply eq_sym, orb_false_r.
  - pose proof (fun x => inv_memb_lo _ _ x (inv_head _ _ _ Hi)) as Lo. destruct Hi as (H1 & H2 & H3 & H4).
    unfold rstart. rewrite rend_small by lia.
    destruct (a_end >? fst r) eqn:G.
    + rewrite wsub_small by lia.
      destruct (add_memb acc (fst r) (Z.min (fst r + snd r) a_end - fst r)) as [A1 A2]; auto; try lia.
      destruct (IH (fst r + snd r + 1) a_end _ H4 ltac:(lia) Ha A1) as [I1 I2].
      split; [exact I1|]. intros x. rewrite I2, A2, memb_cons. lia.
    + split; [exact Hacc|]. intros x. specialize (Lo x). destruct (memb (r :: post) x); lia.
Qed.

Lemma intersect_memb c s l : Inv c -> 0 <= s -> 0 < l -> s + l < TOP ->
  Inv (intersect c s l) /\
  (forall x, memb (intersect c s l) x = memb c x && ((s <=? x) && (x <? s + l))).
Proof.
  intros Hi Hs Hl Htop. unfold intersect. replace (l =? 0) with false by lia.
  rewrite nil_case by (intros ->; reflexivity).
  destruct (find_view c s Hi) as (pre & post & -> & -> & Ec & _ & Ipre & Hhi & Ipost & V).
  rewrite (wadd_small s l) by lia.
  pose proof (fun x => inv_memb_lo _ _ x Ipost) as PostGe.
  set (ret0 := match last_opt pre with Some j => _ | None => _ end).
  assert (Inv ret0 /\ forall x, memb ret0 x = memb pre x && ((s <=? x) && (x <? s + l))) as [R1 R2].
  { unfold ret0. destruct V as [->|(pre' & p & -> & Ipre' & Hp & Ps & P2 & P3)]; [split; [exact I | reflexivity]|].
    rewrite last_opt_app_one. pose proof (fun x => memb_below_hi _ _ x Ipre') as PreLt.
    rewrite rend_small by lia.
    destruct (s <? fst p + snd p) eqn:Lt.
    - rewrite wsub_small by lia.
      destruct (add_memb [] s (Z.min (fst p + snd p) (s + l) - s) I) as [A1 A2]; try lia.
      split; [exact A1|]. intros x. rewrite A2, memb_snoc. cbn. specialize (PreLt x). lia.
    - split; [exact I|]. intros x. rewrite memb_snoc. cbn. specialize (PreLt x). lia. }
  destruct (inter_next_spec post _ (s + l) ret0 Ipost ltac:(lia) ltac:(lia) R1) as [N1 N2].
  split; [exact N1|]. intros x. rewrite N2, R2, Ec, memb_app. specialize (PostGe x). lia.
Qed.

Theorem intersect_ok c s l : Inv c -> 0 <= s -> 0 < l -> s + l < TOP ->
  Inv (intersect c s l) /\ (forall x, mem (intersect c s l) x <-> mem c x /\ s <= x < s + l).
Proof.
  intros Hi Hs Hl Htop. destruct (intersect_memb c s l Hi Hs Hl Htop) as [A B].
  split; [exact A|]. intros x. rewrite !mem_memb, B. lia.
Qed.

(* the steps that `remove_all` and `w_overlap` fold over the other vector *)
Definition remove_step (st : bool * cov) (r : rng) : bool * cov :=
  let '(b, acc) := st in let '(b', acc') := remove acc (rstart r) (rlen r) in (b || b', acc').
Definition overlap_step (a acc : cov) (r : rng) : cov := add_all acc (intersect a (rstart r) (rlen r)).

Lemma remove_all_from other : forall lo b c, 0 <= lo -> Inv c -> inv_from lo other ->
  Inv (snd (fold_left remove_step other (b, c))) /\
  forall x, memb (snd (fold_left remove_step other (b, c))) x = memb c x && negb (memb other x).
Proof.
  induction other as [|r t IH]; intros lo b c Hlo Hc Ho; cbn [fold_left snd].
  - split; [exact Hc | intros x; apply eq_sym, andb_true_r].
  - destruct Ho as (H1 & H2 & H3 & H4). unfold remove_step at 2 4, rstart, rlen.
    destruct (remove c (fst r) (snd r)) as [b' c'] eqn:ER.
    destruct (remove_memb c (fst r) (snd r) b' c' Hc ltac:(lia) H2 H3 ER) as [A1 [A2 _]].
    destruct (IH (fst r + snd r + 1) (b || b') c' ltac:(lia) A1 H4) as [B1 B2]. split; [exact B1|].
    intros x. rewrite B2, A2, memb_cons, negb_orb. apply eq_sym, andb_assoc.
Qed.

(* `A B sub`: set difference *)
Theorem w_sub_ok a b : Inv a -> Inv b ->
  Inv (w_sub a b) /\ forall x, mem (w_sub a b) x <-> mem a x /\ ~ mem b x.
Proof.
  intros Ha Hb. destruct (remove_all_from b 0 false a (Z.le_refl 0) Ha Hb) as [A B].
  split; [exact A|]. intros x. rewrite !mem_memb, B. lia.
Qed.

Lemma overlap_from a other : Inv a -> forall lo acc, 0 <= lo -> Inv acc -> inv_from lo other ->
  Inv (fold_left (overlap_step a) other acc) /\
  forall x, memb (fold_left (overlap_step a) other acc) x = memb acc x || memb a x && memb other x.
Proof.
  intros Ha. induction other as [|r t IH]; intros lo acc Hlo Hacc Ho; cbn [fold_left].
  - split; [exact Hacc | intros x; cbn; lia].
  - destruct Ho as (H1 & H2 & H3 & H4).
    destruct (intersect_memb a (fst r) (snd r) Ha ltac:(lia) H2 H3) as [I1 I2].
    destruct (add_all_memb _ 0 acc (Z.le_refl 0) Hacc I1) as [A1 A2].
    destruct (IH (fst r + snd r + 1) _ ltac:(lia) A1 H4) as [B1 B2]. split; [exact B1|].
    intros x. rewrite B2, A2, I2, memb_cons, andb_orb_distrib_r. apply eq_sym, orb_assoc.
Qed.

(* `A B overlap`: intersection *)
Theorem w_overlap_ok a b : Inv a -> Inv b ->
  Inv (w_overlap a b) /\ forall x, mem (w_overlap a b) x <-> mem a x /\ mem b x.
Proof.
  intros Ha Hb. destruct (overlap_from a b Ha 0 [] (Z.le_refl 0) I Hb) as [A B]. split; [exact A|].
  intros x. rewrite !mem_memb, B. cbn. lia.
Qed.

(* `A B ?contains`: subset; `A B ?overlaps`: non-empty intersection *)
Theorem w_contains_ok a b : Inv a -> Inv b -> (w_contains a b = true <-> forall x, mem b x -> mem a x).
Proof.
  intros Ha Hb. unfold w_contains. rewrite forallb_forall. split.
  - intros H x [r [Hr Xr]]. pose proof (inv_in _ _ _ Hb Hr) as [R1 [R2 R3]].
    apply (proj1 (is_covered_ok a (fst r) (snd r) Ha R1 R2 R3) (H r Hr)). exact Xr.
  - intros H r Hr. pose proof (inv_in _ _ _ Hb Hr) as [R1 [R2 R3]].
    apply (is_covered_ok a (fst r) (snd r) Ha R1 R2 R3). intros x Hx. apply H. exists r. auto.
Qed.

Theorem w_overlaps_ok a b : Inv a -> Inv b -> (w_overlaps a b = true <-> exists x, mem a x /\ mem b x).
Proof.
  intros Ha Hb. unfold w_overlaps. rewrite existsb_exists. split.
  - intros [r [Hr H]]. pose proof (inv_in _ _ _ Hb Hr) as [R1 [R2 R3]].
    apply (is_overlap_ok a (fst r) (snd r) Ha R1 R2 R3) in H. destruct H as [x [X M]].
    exists x. split; [exact M | exists r; auto].
  - intros [x [Ma [r [Hr Xr]]]]. exists r. split; [exact Hr|]. pose proof (inv_in _ _ _ Hb Hr) as [R1 [R2 R3]].
    apply (is_overlap_ok a (fst r) (snd r) Ha R1 R2 R3). exists x. auto.
Qed.
