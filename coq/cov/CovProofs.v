(* Under the representation invariant of CovModel.v a set of addresses has one
   vector (canonicity); what the binary search returns; add is set union. *)
From Coq Require Import ZArith List Bool Lia ZifyBool.
From Dwgrep Require Import ListAux CovModel CmpProofs.
Import ListNotations.
Local Open Scope Z_scope.

(* Proofs compute with the boolean denotation memb: that two vectors denote
   the same set is then an equation between booleans at each address, which
   lia (with ZifyBool, here and in CovProofs2) decides together with the bounds
   that sortedness gives. *)
Lemma mem_memb c x : mem c x <-> memb c x = true.
Proof.
  unfold mem, memb. rewrite existsb_exists.
  split; intros [r [Hin H]]; exists r; (split; [exact Hin | lia]).
Qed.

Lemma memb_cons r c x : memb (r :: c) x = (fst r <=? x) && (x <? fst r + snd r) || memb c x.
Proof. reflexivity. Qed.

Lemma memb_app a b x : memb (a ++ b) x = memb a x || memb b x.
Proof. apply existsb_app. Qed.

Lemma memb_snoc pre p x : memb (pre ++ [p]) x = memb pre x || (fst p <=? x) && (x <? fst p + snd p).
Proof. rewrite memb_app, memb_cons. now rewrite orb_false_r. Qed.

Lemma mem_nil x : ~ mem [] x.
Proof. intros [r [[] _]]. Qed.

Lemma mem_cons r c x : mem (r :: c) x <-> (fst r <= x < fst r + snd r) \/ mem c x.
Proof. rewrite !mem_memb, memb_cons. lia. Qed.

Lemma mem_app a b x : mem (a ++ b) x <-> mem a x \/ mem b x.
Proof. rewrite !mem_memb, memb_app. lia. Qed.

Lemma inv_weaken lo lo' c : lo' <= lo -> inv_from lo c -> inv_from lo' c.
Proof. destruct c as [|r t]; cbn [inv_from]; intros; [auto | intuition lia]. Qed.

Lemma inv_head lo r t : inv_from lo (r :: t) -> inv_from (fst r) (r :: t).
Proof. cbn [inv_from]. intuition lia. Qed.

Lemma inv_in c : forall lo r, inv_from lo c -> In r c -> lo <= fst r /\ 0 < snd r /\ fst r + snd r < TOP.
Proof.
  induction c as [|q t IH]; intros lo r Hi Hin; [destruct Hin|].
  destruct Hi as (H1 & H2 & H3 & H4).
  destruct Hin as [<-|Hin]; [lia|]. specialize (IH _ _ H4 Hin). lia.
Qed.

Lemma inv_mem_top c : forall lo x, inv_from lo c -> mem c x -> x < TOP.
Proof. intros lo x Hi (r & Hin & H). pose proof (inv_in _ _ _ Hi Hin). lia. Qed.

Lemma inv_memb_lo c lo x : inv_from lo c -> memb c x = true -> lo <= x.
Proof. rewrite <- mem_memb. intros Hi (r & Hin & H). pose proof (inv_in _ _ _ Hi Hin). lia. Qed.

Lemma inv_raise c lo m : inv_from lo c -> (forall r, In r c -> m <= fst r) -> inv_from m c.
Proof.
  destruct c as [|r t]; auto.
  intros (H1 & H2 & H3 & H4) Hm. repeat split; auto. apply Hm. left; auto.
Qed.

(* the upper bound (exclusive, plus the mandatory gap) after a prefix *)
Definition hi_of (lo : Z) (pre : cov) : Z :=
  match last_opt pre with Some p => fst p + snd p + 1 | None => lo end.

Lemma last_opt_app_one pre p : last_opt (pre ++ [p]) = Some p.
Proof. unfold last_opt. rewrite rev_app_distr. reflexivity. Qed.

Lemma last_opt_nil : last_opt [] = None.
Proof. reflexivity. Qed.

Lemma last_opt_cases pre : (pre = [] /\ last_opt pre = None) \/ (exists pre' p, pre = pre' ++ [p] /\ last_opt pre = Some p).
Proof.
  induction pre as [|a l _] using rev_ind; [left; auto|].
  right. exists l, a. auto using last_opt_app_one.
Qed.

Lemma hi_of_app_one lo pre p : hi_of lo (pre ++ [p]) = fst p + snd p + 1.
Proof. unfold hi_of. rewrite last_opt_app_one. reflexivity. Qed.

Lemma inv_app pre : forall lo post,
  inv_from lo (pre ++ post) <-> inv_from lo pre /\ inv_from (hi_of lo pre) post.
Proof.
  induction pre as [|r t IH]; intros lo post; cbn [app].
  - cbn. tauto.
  - cbn [inv_from]. rewrite IH.
    assert (E : hi_of lo (r :: t) = hi_of (fst r + snd r + 1) t).
    { destruct (last_opt_cases t) as [[-> E]|(t' & p & -> & E)]; [reflexivity|].
      rewrite (hi_of_app_one _ t'). apply (hi_of_app_one _ (r :: t')). }
    rewrite E. tauto.
Qed.

Lemma hi_nonneg pre : inv_from 0 pre -> 0 <= hi_of 0 pre.
Proof.
  intros Hi. destruct (last_opt_cases pre) as [[-> _]|(pre' & p & -> & _)]; [reflexivity|].
  rewrite hi_of_app_one. destruct (inv_in _ _ p Hi) as (? & ? & ?); [rewrite in_app_iff; cbn; auto | lia].
Qed.

Lemma memb_below_hi : forall pre lo x, inv_from lo pre -> memb pre x = true -> x + 1 < hi_of lo pre.
Proof.
  induction pre as [|p pre IH] using rev_ind; intros lo x Hi M; [discriminate|].
  apply inv_app in Hi. destruct Hi as [Hp (L1 & L2 & L3 & _)].
  rewrite hi_of_app_one. rewrite memb_app, memb_cons in M. cbn in M.
  pose proof (IH lo x Hp). lia.
Qed.

Lemma inv_insert pre q lo post : inv_from 0 pre -> inv_from lo post ->
  hi_of 0 pre <= fst q -> 0 < snd q -> fst q + snd q < TOP -> fst q + snd q < lo -> Inv (pre ++ q :: post).
Proof.
  intros Ipre Ipost Hq Q1 Q2 Hlo. apply inv_app. repeat split; try assumption.
  eapply inv_weaken; [|exact Ipost]. lia.
Qed.

Lemma memb_run_ends lo r t : inv_from lo (r :: t) ->
  memb (r :: t) (fst r) = true /\ memb (r :: t) (fst r + snd r) = false.
Proof.
  intros (_ & H2 & _ & H4). pose proof (inv_memb_lo t _ (fst r + snd r) H4). rewrite !memb_cons. lia.
Qed.

Theorem canonical : forall a lo b lo',
  inv_from lo a -> inv_from lo' b -> (forall x, mem a x <-> mem b x) -> a = b.
Proof.
  intros a lo b lo' Ha Hb E.
  assert (E' : forall x, memb a x = memb b x) by (intros x; apply eq_true_iff_eq; rewrite <- !mem_memb; apply E).
  clear E. revert lo b lo' Ha Hb E'.
  induction a as [|r a IH]; intros lo [|r' b] lo' Ha Hb E; [reflexivity | | |].
  1: destruct (memb_run_ends _ _ _ Hb) as [M _]; rewrite <- E in M; discriminate.
  1: destruct (memb_run_ends _ _ _ Ha) as [M _]; rewrite E in M; discriminate.
  (* the first run is [the least member, the least non-member above it) *)
  assert (fst r = fst r') as Es.
  { destruct (memb_run_ends _ _ _ Ha) as [InA _], (memb_run_ends _ _ _ Hb) as [InB _].
    apply Z.le_antisymm; [apply (inv_memb_lo _ _ _ (inv_head _ _ _ Ha)); rewrite E
                         | apply (inv_memb_lo _ _ _ (inv_head _ _ _ Hb)); rewrite <- E]; assumption. }
  pose proof Ha as (_ & A2 & _ & A4). pose proof Hb as (_ & B2 & _ & B4).
  assert (snd r = snd r') as El.
  { destruct (memb_run_ends _ _ _ Ha) as [_ OutA], (memb_run_ends _ _ _ Hb) as [_ OutB].
    rewrite E, memb_cons in OutA. rewrite <- E, memb_cons in OutB. lia. }
  assert (r = r') as <- by (destruct r, r'; cbn in *; congruence). f_equal.
  apply (IH _ b _ A4 B4). intros x.
  specialize (E x). rewrite !memb_cons in E. pose proof (inv_memb_lo _ _ x A4). pose proof (inv_memb_lo _ _ x B4). lia.
Qed.

Theorem cmp_eq_iff_same_set a b : Inv a -> Inv b ->
  (w_cmp a b = Eq <-> forall x, mem a x <-> mem b x).
Proof.
  intros Ha Hb. rewrite w_cmp_eq. split.
  - intros ->. tauto.
  - eapply canonical; eauto.
Qed.

Lemma starts_mono c : forall lo i j, inv_from lo c -> (i < j < length c)%nat ->
  fst (nth i c (0, 0)) < fst (nth j c (0, 0)).
Proof.
  induction c as [|r t IH]; intros lo i j Hi Hij; cbn [length] in Hij; [lia|].
  destruct Hi as (H1 & H2 & H3 & H4).
  destruct j as [|j]; [lia|]. destruct i as [|i]; cbn [nth].
  - assert (Hin : In (nth j t (0, 0)) t) by (apply nth_In; lia).
    pose proof (inv_in _ _ _ H4 Hin). lia.
  - eapply IH; eauto. lia.
Qed.

Lemma starts_order c lo i j : inv_from lo c -> (i < length c)%nat -> (j < length c)%nat ->
  (fst (nth i c (0, 0)) < fst (nth j c (0, 0)) <-> (i < j)%nat).
Proof.
  intros Hi Li Lj. split; [|intros L; apply (starts_mono c lo); auto].
  intros L. destruct (lt_eq_lt_dec i j) as [[H| ->]|H]; [exact H | lia | pose proof (starts_mono c lo j i Hi); lia].
Qed.

(* what find returns: the number k of ranges that start below `start` *)
Definition is_split_point (c : cov) (start : Z) (k : nat) : Prop :=
  (k <= length c)%nat /\
  (forall i, (i < k)%nat -> fst (nth i c (0, 0)) < start) /\
  (forall i, (k <= i < length c)%nat -> start <= fst (nth i c (0, 0))).

Lemma find_loop_spec c lo start : inv_from lo c ->
  forall fuel a b, (b - a < fuel)%nat -> (a <= b <= length c)%nat ->
  (forall i, (i < a)%nat -> fst (nth i c (0, 0)) < start) ->
  (forall i, (b <= i < length c)%nat -> start < fst (nth i c (0, 0))) ->
  is_split_point c start (find_loop fuel c start a b).
Proof.
  induction fuel as [|fuel IH]; intros a b Hf Hab Hlo Hhi; [lia|].
  cbn [find_loop]. destruct (Nat.ltb_spec a b) as [Lt|Ge].
  - set (i := Nat.div (a + b) 2).
    assert (Hi_rng : (a <= i < b)%nat).
    { split; [apply Nat.div_le_lower_bound; lia | apply Nat.div_lt_upper_bound; lia]. }
    (* the probe decides for every index on its side *)
    assert (Ord : forall k, (k < length c)%nat ->
              (fst (nth k c (0, 0)) < fst (nth i c (0, 0)) <-> (k < i)%nat) /\
              (fst (nth i c (0, 0)) < fst (nth k c (0, 0)) <-> (i < k)%nat)).
    { split; apply (starts_order c lo); auto; lia. }
    unfold rstart. destruct (fst (nth i c (0, 0)) >? start) eqn:G; [|destruct (fst (nth i c (0, 0)) <? start) eqn:L].
    + apply IH; try lia; auto. intros k Hk. specialize (Ord k). lia.
    + apply IH; try lia; auto. intros k Hk. specialize (Ord k). lia.
    + split; [lia|]. split; intros k Hk; specialize (Ord k); lia.
  - assert (a = b) by lia. subst b. split; [lia|]. split; auto.
    intros k Hk. specialize (Hhi k Hk). lia.
Qed.

Theorem find_spec c lo start : inv_from lo c -> is_split_point c start (find c start).
Proof.
  intros Hi. eapply find_loop_spec; eauto; lia.
Qed.

(* the split of the vector at find's index: what follows starts at or above
   `start`; what precedes is empty or ends in a run p that starts below it *)
Lemma find_view c s : Inv c ->
  exists pre post, firstn (find c s) c = pre /\ skipn (find c s) c = post /\ c = pre ++ post /\
    find c s = length pre /\ inv_from 0 pre /\ 0 <= hi_of 0 pre /\ inv_from (Z.max s (hi_of 0 pre)) post /\
    (pre = [] \/
     exists pre' p, pre = pre' ++ [p] /\ inv_from 0 pre' /\ 0 <= hi_of 0 pre' <= fst p /\ fst p < s /\
                    0 < snd p /\ fst p + snd p < TOP).
Proof.
  intros Hi. destruct (find_spec c 0 s Hi) as (K1 & K2 & K3).
  set (k := find c s) in *. exists (firstn k c), (skipn k c).
  unfold Inv in Hi. rewrite <- (firstn_skipn k c) in Hi. apply inv_app in Hi. destruct Hi as [Ipre Ipost].
  split; [reflexivity|]. split; [reflexivity|]. split; [now rewrite firstn_skipn|].
  split; [rewrite firstn_length; lia|].
  split; [exact Ipre|]. split; [exact (hi_nonneg _ Ipre)|]. split.
  - apply (inv_raise _ _ _ Ipost). intros r Hin. pose proof (inv_in _ _ _ Ipost Hin) as [L _].
    apply In_nth with (d := (0, 0)) in Hin. destruct Hin as (i & Hi1 & <-).
    rewrite skipn_length in Hi1. rewrite nth_skipn in *. pose proof (K3 (k + i)%nat). lia.
  - destruct (last_opt_cases (firstn k c)) as [[E _]|(pre' & p & E & _)]; [left; exact E|right].
    exists pre', p. rewrite E in Ipre. apply inv_app in Ipre. destruct Ipre as [Ipre' (P1 & P2 & P3 & _)].
    assert (Ps : fst p < s); [|auto 8 using hi_nonneg].
    assert (Hin : In p (firstn k c)) by (rewrite E, in_app_iff; cbn; auto).
    apply In_nth with (d := (0, 0)) in Hin. destruct Hin as (i & Hi1 & <-).
    rewrite firstn_length in Hi1. rewrite nth_firstn by lia. apply K2. lia.
Qed.

Lemma wadd_small a b : 0 <= a + b < TOP -> wadd a b = a + b.
Proof. apply Z.mod_small. Qed.

Lemma wsub_small a b : 0 <= a - b < TOP -> wsub a b = a - b.
Proof. apply Z.mod_small. Qed.

Lemma rend_small r : 0 <= fst r + snd r < TOP -> rend r = fst r + snd r.
Proof. apply Z.mod_small. Qed.

(* the early return on an empty vector is what the general path computes *)
Lemma nil_case {A B} (c : list A) (x y : B) : (c = [] -> x = y) -> match c with [] => x | _ :: _ => y end = y.
Proof. destruct c; auto. Qed.

(* both ways add_main writes a run: placed after a prefix that ends below it,
   having absorbed what it touches of the vector that follows *)
Lemma absorb_app pre cs post : inv_from 0 pre -> 0 <= hi_of 0 pre <= cs ->
  forall cl, 0 < cl -> cs + cl < TOP -> inv_from cs post ->
  Inv (let '(cl', rest) := absorb cs cl post in pre ++ (cs, cl') :: rest) /\
  forall x, memb (let '(cl', rest) := absorb cs cl post in pre ++ (cs, cl') :: rest) x
            = memb pre x || (cs <=? x) && (x <? cs + cl) || memb post x.
Proof.
  intros Ipre Hhi. induction post as [|p post IH]; intros cl Hcl Htop Hi; cbn [absorb].
  - split; [apply (inv_insert pre (cs, cl) (cs + cl + 1) [] Ipre I); cbn [fst snd]; lia|].
    intros x. rewrite memb_app, memb_cons. apply orb_assoc.
  - pose proof Hi as (H1 & H2 & H3 & H4).
    unfold rstart. rewrite (wadd_small cs cl), rend_small by lia.
    destruct (cs + cl >=? fst p) eqn:T.
    + set (cl2 := if fst p + snd p >? cs + cl then wsub (fst p + snd p) cs else cl).
      assert (Ecl2 : cl2 = Z.max cl (fst p + snd p - cs)).
      { unfold cl2. destruct (fst p + snd p >? cs + cl) eqn:G; [rewrite wsub_small by lia|]; lia. }
      destruct (IH cl2) as [A B]; try lia. { eapply inv_weaken; [|exact H4]; lia. }
      split; [exact A|]. intros x. rewrite B, memb_cons. lia.
    + split; [apply (inv_insert _ _ _ _ Ipre (inv_head _ _ _ Hi)); cbn [fst snd]; lia|].
      intros x. rewrite memb_app, memb_cons. apply orb_assoc.
Qed.

Lemma add_main_ok c s l : Inv c -> 0 <= s -> 0 < l -> s + l < TOP ->
  Inv (add_main c s l) /\ forall x, memb (add_main c s l) x = memb c x || (s <=? x) && (x <? s + l).
Proof.
  intros Hi Hs Hl Htop.
  destruct (find_view c s Hi) as (pre & post & Ef & Es & Ec & _ & Ipre & Hhi & Ipost & V).
  unfold add_main. rewrite Ef, Es.
  set (fresh := let '(cl, rest) := absorb s l post in pre ++ (s, cl) :: rest).
  assert (Fresh : hi_of 0 pre <= s -> Inv fresh /\ forall x, memb fresh x = memb c x || (s <=? x) && (x <? s + l)).
  { intros H. destruct (absorb_app pre s post Ipre ltac:(lia) l Hl Htop) as [A B].
    { eapply inv_weaken; [|exact Ipost]; lia. }
    split; [exact A|]. intros x. rewrite B, Ec, memb_app. lia. }
  destruct V as [->|(pre' & p & -> & Ipre' & Hp & Ps & P2 & P3)]; [exact (Fresh Hs)|].
  rewrite last_opt_app_one. rewrite hi_of_app_one in *.
  unfold rstart. rewrite rend_small by lia.
  destruct (s <=? fst p + snd p) eqn:T1; [|apply Fresh; lia].
  rewrite (wadd_small s l) by lia. destruct (s + l >? fst p + snd p) eqn:T2.
  + (* p grows to s + l, and goes on absorbing *)
    rewrite wsub_small, removelast_last by lia.
    destruct (absorb_app pre' (fst p) post Ipre' Hp (s + l - fst p)) as [A B]; try lia.
    { eapply inv_weaken; [|exact Ipost]; lia. }
    split; [exact A|]. intros x. rewrite B, Ec, memb_app, memb_snoc. lia.
  + (* p covers the interval already *)
    split; [exact Hi|]. intros x. rewrite Ec, memb_app, memb_snoc. lia.
Qed.

Lemma add_memb c s l : Inv c -> 0 <= s -> 0 <= l -> s + l < TOP ->
  Inv (add c s l) /\ forall x, memb (add c s l) x = memb c x || (s <=? x) && (x <? s + l).
Proof.
  intros Hi Hs Hl Htop. unfold add. destruct (l =? 0) eqn:Z0; [split; [exact Hi | intros x; lia]|].
  rewrite nil_case by (intros ->; reflexivity). apply add_main_ok; auto; lia.
Qed.

Theorem add_ok c s l : Inv c -> 0 <= s -> 0 <= l -> s + l < TOP ->
  Inv (add c s l) /\ forall x, mem (add c s l) x <-> mem c x \/ s <= x < s + l.
Proof.
  intros Hi Hs Hl Htop. destruct (add_memb c s l Hi Hs Hl Htop) as [A B].
  split; [exact A|]. intros x. rewrite !mem_memb, B. lia.
Qed.

(* `A B add`: union *)
Lemma add_all_memb other : forall lo c, 0 <= lo -> Inv c -> inv_from lo other ->
  Inv (add_all c other) /\ forall x, memb (add_all c other) x = memb c x || memb other x.
Proof.
  induction other as [|r t IH]; intros lo c Hlo Hc Ho; cbn [fold_left].
  - split; [exact Hc | intros x; apply eq_sym, orb_false_r].
  - destruct Ho as (H1 & H2 & H3 & H4).
    destruct (add_memb c (fst r) (snd r)) as [A1 A2]; auto; try lia.
    destruct (IH (fst r + snd r + 1) (add c (fst r) (snd r))) as [B1 B2]; auto; try lia.
    split; [exact B1|]. intros x. rewrite B2, A2, memb_cons. apply eq_sym, orb_assoc.
Qed.

Theorem add_all_ok c other : Inv c -> Inv other ->
  Inv (add_all c other) /\ forall x, mem (add_all c other) x <-> mem c x \/ mem other x.
Proof.
  intros Hc Ho. destruct (add_all_memb other 0 c (Z.le_refl 0) Hc Ho) as [A B].
  split; [exact A|]. intros x. rewrite !mem_memb, B. lia.
Qed.
