(* Every operator of IntModel.v is the exact integer operation when the result
   is in [-2^63, 2^64), an error otherwise (and on division by zero).  The sign
   tests are stated as boolean equations (`lt v zero = (ival v <? 0)`), which
   `lia` reads through ZifyBool.  Importing IntModel makes `eq`, `lt`, `le`, `add`
   ... the model's. *)
From Coq Require Import ZArith Bool Lia ZifyBool List.
From Dwgrep Require Import TwosComplement IntModel.
Local Open Scope Z_scope.

Definition spec_res (r : res) (z : Z) : Prop :=
  match r with
  | Ok v => wf v /\ ival v = z
  | Err => ~ in_range z
  end.

(* 2^64 and 2^63 stay folded: this is all the proofs need of them, and lia
   sees two atoms instead of twenty-digit numerals. *)
Lemma W_HW : W = 2 * HW /\ 0 < HW.
Proof. split; reflexivity. Qed.

Ltac w_lia := pose proof W_HW; unfold wf, in_range in *; cbn [u sg] in *; lia.

Lemma wrap_eq z k : 0 <= z + k * W < W -> wrap z = z + k * W.
Proof.
  intros H. symmetry. apply (Z.mod_unique z W (- k)); [left; exact H | ring].
Qed.

Lemma wrap_small z : 0 <= z < W -> wrap z = z.
Proof. apply Z.mod_small. Qed.

Lemma mi_signed v : mi v = signed HW (u v).
Proof. reflexivity. Qed.

Lemma ival_cases v : wf v ->
  sg v = true /\ mi v = ival v /\ - HW <= ival v < HW \/
  sg v = false /\ u v = ival v /\ 0 <= ival v < W.
Proof.
  destruct v as [x [|]]; intros H; [left | right; auto]. unfold ival; cbn [sg]. rewrite mi_signed.
  repeat split; apply (signed_range HW x H).
Qed.

Lemma ival_range v : wf v -> in_range (ival v).
Proof. intros H. destruct (ival_cases v H) as [(_ & _ & R)|(_ & _ & R)]; w_lia. Qed.

Lemma ival_nonneg_u v : wf v -> 0 <= ival v -> u v = ival v.
Proof.
  destruct v as [x [|]]; unfold ival, mi; cbn [u sg]; [|reflexivity].
  destruct (x <? HW) eqn:E; w_lia.
Qed.

Lemma ival_neg_u v : wf v -> ival v < 0 -> sg v = true /\ mi v = ival v /\ u v = ival v + W.
Proof.
  destruct v as [x [|]]; unfold ival, mi; cbn [u sg]; [|w_lia].
  destruct (x <? HW) eqn:E; w_lia.
Qed.

Lemma spec_signed z : - HW <= z < HW -> spec_res (Ok (mk (wrap z) true)) z.
Proof. intros H. split; [apply Z.mod_pos_bound; reflexivity | exact (signed_mod HW z H)]. Qed.

Lemma spec_unsigned z : 0 <= z < W -> spec_res (Ok (mk z false)) z.
Proof. intros H. split; [exact H | reflexivity]. Qed.

Lemma spec_res_ok r z : spec_res r z -> in_range z -> exists v, r = Ok v /\ wf v /\ ival v = z.
Proof. destruct r as [v|]; cbn; intros H R; [exists v; tauto | tauto]. Qed.

Lemma spec_bind r z f z' : spec_res r z -> in_range z ->
  (forall v, wf v -> ival v = z -> spec_res (f v) z') -> spec_res (bind r f) z'.
Proof.
  intros H R F. destruct (spec_res_ok r z H R) as (v & -> & Hv & Iv). exact (F v Hv Iv).
Qed.

Lemma spec_res_det r r' z : spec_res r z -> spec_res r' z ->
  match r, r' with
  | Ok v, Ok v' => ival v = ival v'
  | Err, Err => True
  | _, _ => False
  end.
Proof.
  destruct r as [v|], r' as [v'|]; intros H1 H2; auto.
  - destruct H1, H2; congruence.
  - destruct H1 as [H1 <-]. apply H2, ival_range; auto.
  - destruct H2 as [H2 <-]. apply H1, ival_range; auto.
Qed.

Lemma lt_iff a b : wf a -> wf b -> (lt a b = true <-> ival a < ival b).
Proof.
  intros Ha Hb. unfold lt.
  destruct (ival_cases a Ha) as [(-> & -> & Ra)|(-> & -> & Ra)],
           (ival_cases b Hb) as [(-> & -> & Rb)|(-> & -> & Rb)]; cbn [Bool.eqb andb]; try apply Z.ltb_lt.
  - destruct (Z.ltb_spec (ival a) 0); [lia|]. rewrite (ival_nonneg_u a) by assumption. apply Z.ltb_lt.
  - destruct (Z.ltb_spec (ival b) 0); [lia|]. rewrite (ival_nonneg_u b) by assumption. apply Z.ltb_lt.
Qed.

Lemma nonneg_eq v : wf v -> nonneg v = (0 <=? ival v).
Proof.
  intros H. unfold nonneg.
  destruct (ival_cases v H) as [(-> & -> & R)|(-> & _ & R)]; cbn [negb orb]; lia.
Qed.

Lemma is_neg_eq v : wf v -> is_neg v = (ival v <? 0).
Proof.
  intros H. unfold is_neg.
  destruct (ival_cases v H) as [(-> & -> & R)|(-> & _ & R)]; cbn [andb]; lia.
Qed.

Lemma neg_ok v : wf v ->
  match neg v with
  | Ok r => wf r /\ ival r = - ival v
  | Err => ~ in_range (- ival v)
  end.
Proof.
  intros H. change (spec_res (neg v) (- ival v)). unfold neg.
  destruct (ival_cases v H) as [(-> & -> & R)|(-> & -> & R)].
  - destruct (Z.eqb_spec (ival v) (- HW)) as [E1|E1]; [|destruct (Z.gtb_spec (ival v) 0)].
    + replace (- ival v) with HW by lia. apply spec_unsigned; w_lia.
    + apply spec_signed; lia.
    + rewrite wrap_small by w_lia. apply spec_unsigned; w_lia.
  - destruct (Z.gtb_spec (ival v) HW).
    + cbn; w_lia.
    + apply spec_signed; w_lia.
Qed.

Lemma neg_nonneg v r : wf v -> neg v = Ok r -> ival v <= 0 -> nonneg r = true.
Proof.
  intros H E L. pose proof (neg_ok v H) as N. rewrite E in N. rewrite nonneg_eq; [lia | tauto].
Qed.

Lemma spec_bind_neg v f z : wf v -> in_range (- ival v) ->
  (forall m, wf m -> ival m = - ival v -> spec_res (f m) z) -> spec_res (bind (neg v) f) z.
Proof. intros H R F. exact (spec_bind _ _ f z (neg_ok v H) R F). Qed.

Lemma add_uns_ok a b : wf a -> wf b -> 0 <= ival a -> 0 <= ival b ->
  spec_res (add_uns a b) (ival a + ival b).
Proof.
  intros Ha Hb Ha0 Hb0. unfold add_uns.
  rewrite (ival_nonneg_u a), (ival_nonneg_u b) by assumption.
  apply ival_range in Ha, Hb.
  destruct (Z_lt_le_dec (ival a + ival b) W).
  - rewrite wrap_small by lia. destruct (_ <? _) eqn:E; [lia|]. apply spec_unsigned; lia.
  - rewrite (wrap_eq _ (-1)) by w_lia. destruct (_ <? _) eqn:E; cbn; w_lia.
Qed.

Lemma sub_nn_ok a b : wf a -> wf b -> 0 <= ival a -> 0 <= ival b ->
  spec_res (sub_nn a b) (ival a - ival b).
Proof.
  intros Ha Hb Ha0 Hb0. unfold sub_nn.
  rewrite (ival_nonneg_u a), (ival_nonneg_u b) by assumption.
  apply ival_range in Ha, Hb.
  destruct (Z.gtb_spec (ival a) (ival b)); [|destruct (Z.gtb_spec (ival b - ival a) HW)].
  - apply spec_unsigned; w_lia.
  - cbn; w_lia.
  - replace (ival a - ival b) with (- (ival b - ival a)) by ring. apply spec_signed; w_lia.
Qed.

(* the branches of operator+ that go by the operands' values *)
Lemma add_mixed_ok a b : wf a -> wf b -> 0 <= ival a \/ 0 <= ival b ->
  spec_res (if is_neg a then bind (neg a) (fun na => sub_nn b na)
            else if is_neg b then bind (neg b) (fun nb => sub_nn a nb)
            else add_uns a b) (ival a + ival b).
Proof.
  intros Ha Hb H. rewrite !is_neg_eq by assumption.
  pose proof (ival_range a Ha). pose proof (ival_range b Hb).
  destruct (Z.ltb_spec (ival a) 0) as [Na|Na]; [|destruct (Z.ltb_spec (ival b) 0) as [Nb|Nb]].
  - apply spec_bind_neg; [assumption | w_lia |]; intros n Hn In.
    replace (ival a + ival b) with (ival b - ival n) by lia. apply sub_nn_ok; auto; lia.
  - apply spec_bind_neg; [assumption | w_lia |]; intros n Hn In.
    replace (ival a + ival b) with (ival a - ival n) by lia. apply sub_nn_ok; auto; lia.
  - apply add_uns_ok; auto.
Qed.

Lemma add_ok a b : wf a -> wf b -> spec_res (add a b) (ival a + ival b).
Proof.
  intros Ha Hb. unfold add.
  destruct (ival_cases a Ha) as [(-> & Ma & Ra)|(-> & _ & Ra)],
           (ival_cases b Hb) as [(-> & Mb & Rb)|(-> & _ & Rb)];
    cbn [Bool.eqb]; try (apply add_mixed_ok; auto; lia).
  - (* both signed: by the signs, then by the magnitudes *)
    rewrite Ma, Mb. set (x := ival a) in *. set (y := ival b) in *.
    destruct ((x <=? 0) && (y >=? 0) || (y <=? 0) && (x >=? 0)) eqn:E1; [apply spec_signed; lia|].
    destruct ((x >=? 0) && (y >=? 0)) eqn:E2; [apply add_uns_ok; auto; lia|].
    destruct ((x =? - HW) || (y =? - HW)) eqn:E3; [cbn; w_lia|].
    rewrite (wrap_small (- x)), (wrap_small (- y)) by w_lia.
    rewrite (wrap_small (- x + - y)) by w_lia.
    destruct ((- x + - y <? - x) || (- x + - y >? HW)) eqn:E4; [cbn; w_lia|].
    replace (x + y) with (- (- x + - y)) by ring. apply spec_signed; w_lia.
  - apply add_uns_ok; auto; lia.
Qed.

Lemma sub_ok a b : wf a -> wf b -> spec_res (sub a b) (ival a - ival b).
Proof.
  intros Ha Hb. unfold sub. rewrite is_neg_eq, !nonneg_eq by assumption.
  pose proof (ival_range a Ha) as Ra. pose proof (ival_range b Hb) as Rb.
  destruct ((0 <=? ival a) && (0 <=? ival b)) eqn:E; [apply sub_nn_ok; auto; lia|].
  destruct (Z.ltb_spec (ival b) 0) as [Nb|Nb].
  - apply spec_bind_neg; [assumption | w_lia |]; intros n Hn In.
    replace (ival a - ival b) with (ival a + ival n) by lia. apply add_ok; auto.
  - (* a < 0 <= b: unless the result is below -2^63, b < 2^63 and so is its own signed reading *)
    destruct (ival_neg_u a Ha) as (_ & -> & ->); [lia|].
    unfold mi. rewrite (ival_nonneg_u b), wrap_small by (auto; w_lia).
    destruct (Z.gtb_spec (ival b) (ival a + W - HW)); [cbn; w_lia|].
    destruct (Z.ltb_spec (ival b) HW); [apply spec_signed|]; w_lia.
Qed.

(* the overflow test of operator*, `a != 0 && r / a != b` with r = a * b mod 2^64 *)
Lemma mul_test x y : 0 <= x < W -> 0 <= y < W ->
  negb (x =? 0) && negb (wrap (x * y) / x =? y) = (W <=? x * y).
Proof.
  intros Hx Hy. destruct (Z.eqb_spec x 0) as [->|Nz]; cbn [negb andb]; [lia|].
  destruct (Z_lt_le_dec (x * y) W).
  - rewrite wrap_small, Z.mul_comm, Z.div_mul by nia. lia.
  - (* the wrapped product is below 2^64 <= x * y, so its quotient by x is below y *)
    assert (wrap (x * y) / x < y); [|lia].
    apply Z.div_lt_upper_bound; [lia|]. pose proof (Z.mod_pos_bound (x * y) W). unfold wrap. w_lia.
Qed.

(* the two tails of operator* *)
Lemma mul_uu_ok a b : wf a -> wf b -> 0 <= ival a -> 0 <= ival b ->
  spec_res (let r := wrap (u a * u b) in
            if negb (u a =? 0) && negb (r / u a =? u b) then Err else Ok (mk r false))
           (ival a * ival b).
Proof.
  intros Ha Hb Ha0 Hb0. rewrite (ival_nonneg_u a), (ival_nonneg_u b) by assumption.
  apply ival_range in Ha, Hb. cbv zeta. rewrite mul_test by w_lia.
  destruct (Z.leb_spec W (ival a * ival b)); [cbn; w_lia|].
  rewrite wrap_small by nia. apply spec_unsigned; nia.
Qed.

Lemma mul_neg_ok n p : wf n -> wf p -> ival n < 0 -> 0 <= ival p ->
  spec_res (bind (neg n) (fun nb =>
              let x := u nb in
              let r := wrap (x * u p) in
              if negb (x =? 0) && negb (r / x =? u p) then Err
              else if r >? HW then Err
              else Ok (mk (wrap (- r)) true))) (ival n * ival p).
Proof.
  intros Hn Hp Ln Lp. pose proof (ival_range n Hn). pose proof (ival_range p Hp).
  apply spec_bind_neg; [assumption | w_lia |]; intros m Hm Im.
  rewrite (ival_nonneg_u m), (ival_nonneg_u p) by (auto; lia). cbv zeta.
  rewrite mul_test by w_lia.
  replace (ival n * ival p) with (- (ival m * ival p)) by (rewrite Im; ring).
  destruct (Z.leb_spec W (ival m * ival p)); [cbn; w_lia|]. rewrite wrap_small by lia.
  destruct (Z.gtb_spec (ival m * ival p) HW); [cbn; w_lia|]. apply spec_signed; w_lia.
Qed.

Lemma mul_ok a b : wf a -> wf b -> spec_res (mul a b) (ival a * ival b).
Proof.
  intros Ha Hb. unfold mul. rewrite !is_neg_eq by assumption.
  pose proof (ival_range a Ha). pose proof (ival_range b Hb).
  destruct ((ival a <? 0) && (ival b <? 0)) eqn:E.
  - apply spec_bind_neg; [assumption | w_lia |]; intros na Hna Ina.
    apply spec_bind_neg; [assumption | w_lia |]; intros nb Hnb Inb.
    rewrite !nonneg_eq by assumption.
    replace ((0 <=? ival na) && (0 <=? ival nb)) with true by lia.
    replace (ival a * ival b) with (ival na * ival nb) by (rewrite Ina, Inb; ring).
    apply mul_uu_ok; auto; lia.
  - cbn [bind]. rewrite !nonneg_eq, is_neg_eq by assumption.
    destruct ((0 <=? ival a) && (0 <=? ival b)) eqn:E1; [apply mul_uu_ok; auto; lia|].
    destruct (Z.ltb_spec (ival a) 0) as [Na|Na]; [|rewrite Z.mul_comm]; apply mul_neg_ok; auto; lia.
Qed.

Lemma wf_zero : wf zero.
Proof. split; easy. Qed.

Lemma lt_zero_eq v : wf v -> lt v zero = (ival v <? 0).
Proof. intros H. pose proof (lt_iff v zero H wf_zero) as L. change (ival zero) with 0 in L. lia. Qed.

Lemma u_zero_eq v : wf v -> (u v =? 0) = (ival v =? 0).
Proof.
  intros H. pose proof (ival_range v H). destruct (Z_lt_le_dec (ival v) 0) as [l|l].
  - destruct (ival_neg_u v H l) as (_ & _ & ->). w_lia.
  - rewrite ival_nonneg_u by assumption. reflexivity.
Qed.

(* `if (v < 0) v = -v;` leaves the magnitude, as a non-negative operand *)
Lemma spec_abs v f z : wf v ->
  (forall m, wf m -> u m = Z.abs (ival v) -> spec_res (f m) z) ->
  spec_res (bind (if lt v zero then neg v else Ok v) f) z.
Proof.
  intros H F. rewrite lt_zero_eq by assumption. pose proof (ival_range v H).
  destruct (Z.ltb_spec (ival v) 0) as [L|L].
  - apply spec_bind_neg; [assumption | w_lia |]; intros m Hm Im.
    apply F; auto. rewrite ival_nonneg_u by (auto; lia). lia.
  - apply F; auto. rewrite ival_nonneg_u by (auto; lia). lia.
Qed.

Lemma div_abs x y : y <> 0 ->
  x / y = if xorb (x <? 0) (y <? 0)
          then - (if negb (Z.abs x mod Z.abs y =? 0) then Z.abs x / Z.abs y + 1 else Z.abs x / Z.abs y)
          else Z.abs x / Z.abs y.
Proof.
  intros Ny. destruct (Z.ltb_spec x 0), (Z.ltb_spec y 0); cbn [xorb].
  - rewrite !Z.abs_neq, Z.div_opp_opp by lia. reflexivity.
  - rewrite (Z.abs_neq x), (Z.abs_eq y) by lia. rewrite <- (Z.opp_involutive x) at 1.
    destruct (Z.eqb_spec (- x mod y) 0); cbn [negb];
      [rewrite Z.div_opp_l_z | rewrite Z.div_opp_l_nz]; lia.
  - rewrite (Z.abs_eq x), (Z.abs_neq y) by lia. rewrite <- (Z.opp_involutive y) at 1.
    destruct (Z.eqb_spec (x mod - y) 0); cbn [negb];
      [rewrite Z.div_opp_r_z | rewrite Z.div_opp_r_nz]; lia.
  - rewrite !Z.abs_eq by lia. reflexivity.
Qed.

Lemma mod_abs x y : y <> 0 ->
  x mod y = let r0 := Z.abs x mod Z.abs y in
            let r := if negb (r0 =? 0) && negb (Bool.eqb (x <? 0) (y <? 0)) then Z.abs y - r0 else r0 in
            if y <? 0 then - r else r.
Proof.
  intros Ny. destruct (Z.ltb_spec x 0), (Z.ltb_spec y 0); cbn [Bool.eqb negb].
  - rewrite andb_false_r, !Z.abs_neq by lia. rewrite <- Z.mod_opp_opp, !Z.opp_involutive by lia. reflexivity.
  - rewrite andb_true_r, (Z.abs_neq x), (Z.abs_eq y) by lia. rewrite <- (Z.opp_involutive x) at 1.
    destruct (Z.eqb_spec (- x mod y) 0); cbn [negb];
      [rewrite Z.mod_opp_l_z | rewrite Z.mod_opp_l_nz]; lia.
  - rewrite andb_true_r, (Z.abs_eq x), (Z.abs_neq y) by lia. rewrite <- (Z.opp_involutive y) at 1.
    destruct (Z.eqb_spec (x mod - y) 0); cbn [negb];
      [rewrite Z.mod_opp_r_z | rewrite Z.mod_opp_r_nz]; lia.
  - rewrite andb_false_r, !Z.abs_eq by lia. reflexivity.
Qed.

Lemma div_bound A B : 0 <= A < W -> 0 < B -> 0 <= A / B < W.
Proof.
  split; [apply Z.div_pos; lia|].
  apply Z.le_lt_trans with A; [|lia]. apply Z.div_le_upper_bound; nia.
Qed.

(* a non-zero remainder means B >= 2, so the quotient is below 2^63 *)
Lemma div_succ_bound A B : 0 <= A < W -> 0 < B -> A mod B <> 0 -> 0 <= A / B + 1 < W.
Proof.
  intros HA HB HM.
  assert (B <> 1) by (intros ->; rewrite Z.mod_1_r in HM; lia).
  assert (A / B <= A / 2) by (apply Z.div_le_compat_l; lia).
  assert (0 <= A / B) by (apply Z.div_pos; lia).
  assert (A / 2 < HW) by (apply Z.div_lt_upper_bound; w_lia).
  w_lia.
Qed.

Theorem div_ok a b : wf a -> wf b ->
  if ival b =? 0 then div a b = Err
  else spec_res (div a b) (ival a / ival b).
Proof.
  intros Ha Hb. unfold div. rewrite u_zero_eq by assumption.
  destruct (Z.eqb_spec (ival b) 0) as [Z0|Z0]; [reflexivity|].
  apply spec_abs; [assumption|]; intros p Hp Up. apply spec_abs; [assumption|]; intros q Hq Uq.
  rewrite !lt_zero_eq, (div_abs (ival a) (ival b)), <- Up, <- Uq by (assumption || lia).
  assert (0 < u q) by lia.
  destruct (xorb _ _); [|apply spec_unsigned, div_bound; assumption].
  destruct (Z.eqb_spec (u p mod u q) 0) as [M|M]; cbn [negb].
  - apply (neg_ok (mk _ false)), div_bound; assumption.
  - rewrite wrap_small; [apply (neg_ok (mk _ false))|]; apply div_succ_bound; auto.
Qed.

Lemma mod_spec a b : wf a -> wf b -> ival b <> 0 -> spec_res (modulo a b) (ival a mod ival b).
Proof.
  intros Ha Hb Nz. unfold modulo. rewrite u_zero_eq by assumption.
  replace (ival b =? 0) with false by lia.
  apply spec_abs; [assumption|]; intros p Hp Up. apply spec_abs; [assumption|]; intros q Hq Uq.
  rewrite !lt_zero_eq, (mod_abs (ival a) (ival b)), <- Up, <- Uq by (assumption || lia). cbv zeta.
  pose proof (Z.mod_pos_bound (u p) (u q)).
  (* a remainder is always in range: below |b| in magnitude, and |b| <= 2^63 when b < 0, so [neg] cannot fail *)
  destruct (negb (u p mod u q =? 0) && _) eqn:E;
    (destruct (ival b <? 0) eqn:Lb; [apply (neg_ok (mk _ false)) | apply spec_unsigned]; w_lia).
Qed.

Theorem mod_ok a b : wf a -> wf b ->
  if ival b =? 0 then modulo a b = Err
  else exists r, modulo a b = Ok r /\ wf r /\ ival r = ival a mod ival b.
Proof.
  intros Ha Hb. destruct (Z.eqb_spec (ival b) 0) as [Z0|Nz].
  - unfold modulo. rewrite u_zero_eq, Z0 by assumption. reflexivity.
  - apply spec_res_ok; [apply mod_spec; assumption|]. pose proof (ival_range b Hb).
    pose proof (Z.mod_pos_bound (ival a) (ival b)). pose proof (Z.mod_neg_bound (ival a) (ival b)).
    w_lia.
Qed.

Theorem cmp_ok a b : wf a -> wf b ->
  (lt a b = (ival a <? ival b)) /\ (gt a b = (ival a >? ival b)) /\
  (le a b = (ival a <=? ival b)) /\ (ge a b = (ival a >=? ival b)) /\
  (eq a b = (ival a =? ival b)) /\ (ne a b = negb (ival a =? ival b)).
Proof.
  intros Ha Hb.
  pose proof (lt_iff a b Ha Hb) as L1. pose proof (lt_iff b a Hb Ha) as L2.
  unfold ne, gt, le, ge, eq. destruct (lt a b), (lt b a); cbn [negb andb orb]; lia.
Qed.

Theorem repr_irrelevant a a' b b' : wf a -> wf a' -> wf b -> wf b' ->
  ival a = ival a' -> ival b = ival b' ->
  forall op, In op (add :: sub :: mul :: div :: nil) ->
  match op a b, op a' b' with
  | Ok r, Ok r' => ival r = ival r'
  | Err, Err => True
  | _, _ => False
  end.
Proof.
  intros Ha Ha' Hb Hb' Ea Eb op [<-|[<-|[<-|[<-|[]]]]].
  - apply (spec_res_det _ _ (ival a + ival b)); [|rewrite Ea, Eb]; auto using add_ok.
  - apply (spec_res_det _ _ (ival a - ival b)); [|rewrite Ea, Eb]; auto using sub_ok.
  - apply (spec_res_det _ _ (ival a * ival b)); [|rewrite Ea, Eb]; auto using mul_ok.
  - pose proof (div_ok a b Ha Hb) as H1. pose proof (div_ok a' b' Ha' Hb') as H2.
    rewrite <- Ea, <- Eb in H2. destruct (ival b =? 0).
    + rewrite H1, H2. exact I.
    + exact (spec_res_det _ _ _ H1 H2).
Qed.
