(* C06 — cooked view = raw view with imports inlined and inherited attributes integrated. *)
From Coq Require Import NArith List.
From Dwgrep Require Import Forest ForestProofs FindAttr FindAttrProofs ChildIter ChildIterProofs.
Import ListNotations.
Local Open Scope N_scope.

(* imports are replaced in place: the cooked children of a list of DIEs are the
   concatenation, in order, of what each of them expands to ... *)
Theorem C06_inlining_in_place : forall fuel f l1 l2,
  cooked_kids fuel f (l1 ++ l2) = cooked_kids fuel f l1 ++ cooked_kids fuel f l2.
Proof. exact cooked_kids_app. Qed.
(* ... recursively: no resolvable DW_TAG_imported_unit is left ... *)
Theorem C06_no_import_left : forall fuel f kids, Forall (fun k => import_target f k = None) (cooked_kids fuel f kids).
Proof. exact cooked_kids_inlined. Qed.
(* ... and where nothing is imported the cooked children are the raw ones *)
Theorem C06_no_imports_no_change : forall f kids n,
  Forall (fun k => import_target f k = None) kids -> cooked_kids (S n) f kids = kids.
Proof. exact cooked_kids_no_imports. Qed.

(* `attribute` never yields a name twice, through chains and forks of any shape *)
Theorem C06_no_name_twice : forall fuel f d, NoDup (names (cooked_attrs fuel f d)).
Proof. exact cooked_attrs_names_nodup. Qed.
(* the DIE's own attributes come first; nothing that follows is DW_AT_sibling or DW_AT_declaration (the two
   that are not brought in through DW_AT_specification / DW_AT_abstract_origin) *)
Theorem C06_own_then_inherited : forall fu f d,
  exists own inherited,
    cooked_attrs (S fu) f d = own ++ inherited /\
    Forall (fun oa => fst oa = d_off d /\ In (snd oa) (d_attrs d)) own /\
    Forall (fun n => should_integrate n = true) (names inherited).
Proof. exact cooked_attrs_own_then_inherited. Qed.
(* `@AT_x` is `attribute ?AT_x`: what the model of find_attribute (recursion: the DIE itself, then what
   DW_AT_specification leads to, then what DW_AT_abstract_origin leads to) finds is the first attribute of that
   name that the model of attribute_producer (explicit stack, seen-set) yields - for every name (integrated or
   not), every DIE whose link chains end within k steps (any k, any shape, shared targets), given fuel for the walk *)
Theorem C06_atval_is_first_attribute : forall f x k d fuel,
  deep f k d -> (length (pre f k d) < fuel)%nat ->
  find (hasname x) (cooked_attrs fuel f d) = FindAttrM.find_attr (S k) f d x.
Proof. exact atval_is_first_attribute. Qed.
Example C06_atval_nonvacuous :
  let base := Die 30 52 false 3 [mkattr 3 8 None; mkattr 11 11 None] [] in
  let mid := Die 20 52 false 2 [mkattr AT_abstract_origin 19 (Some 30)] [] in
  let top := Die 10 52 false 1 [mkattr AT_specification 19 (Some 20); mkattr 58 11 None] [] in
  let f := [mkunit 0 4 0 (Some (Die 1 17 true 9 [] [top; mid; base]))] in
  deep f 2 top /\ (length (pre f 2 top) < 10)%nat /\
  FindAttrM.find_attr 3 f top 11 = Some (30, mkattr 11 11 None) /\
  find (hasname 11) (cooked_attrs 10 f top) = Some (30, mkattr 11 11 None).
Proof. split; [repeat constructor|split; [repeat constructor|split; reflexivity]]. Qed.

(* the producer behind cooked `child` (model dw/ChildIter.v of die_it_producer: a stack of sibling ranges and the
   chain of imports) hands out exactly the in-place recursive expansion, every DIE with the chain of imported_unit
   DIEs it was reached through, innermost first - for every DIE below which imports nest finitely deep (any
   depth n), from some amount of fuel on; and those DIEs are the model's cooked children *)
Theorem C06_child_producer_is_the_expansion : forall f n d, fits d_kids n f (d_kids d) ->
  exists w, forall e, ChildIterM.children (w + e) f d = ChildIterM.expand d_kids n f (d_kids d) [].
Proof. exact children_are_the_expansion. Qed.
(* the same producer over all DIEs of a unit (cooked `entry`): every import replaced in place by all the DIEs of the
   imported unit but its root, recursively *)
Theorem C06_entry_producer_is_the_expansion : forall f n r, fits ChildIterM.rest_of_unit n f (preorder r) ->
  exists w, forall e, ChildIterM.entries (w + e) f r = ChildIterM.expand ChildIterM.rest_of_unit n f (preorder r) [].
Proof. exact entries_are_the_expansion. Qed.
Theorem C06_child_producer_yields_the_cooked_children : forall f n d, fits d_kids n f (d_kids d) ->
  exists w, forall e, map fst (ChildIterM.children (w + e) f d) = cooked_kids (S n) f (d_kids d).
Proof. exact children_are_cooked_kids. Qed.
Example C06_child_producer_nonvacuous :
  let p2 := Die 40 60 true 4 [] [Die 41 52 false 5 [] []] in
  let p1 := Die 30 60 true 3 [] [Die 31 52 false 5 [] []; Die 32 61 false 6 [mkattr AT_import 16 (Some 40)] []; Die 33 52 false 5 [] []] in
  let top := Die 10 17 true 1 [] [Die 11 52 false 5 [] []; Die 12 61 false 6 [mkattr AT_import 16 (Some 30)] []; Die 13 52 false 5 [] []] in
  let f := [mkunit 0 4 0 (Some top); mkunit 25 4 0 (Some p1); mkunit 35 4 0 (Some p2)] in
  fits d_kids 2 f (d_kids top) /\
  map (fun x => (d_off (fst x), snd x)) (ChildIterM.children 50 f top) = [(11, []); (31, [12]); (41, [32; 12]); (33, [12]); (13, [])] /\
  map (fun x => (d_off (fst x), snd x)) (ChildIterM.entries 50 f top) = [(10, []); (11, []); (31, [12]); (41, [32; 12]); (33, [12]); (13, [])].
Proof. split; [repeat constructor|split; reflexivity]. Qed.

Print Assumptions C06_inlining_in_place.
Print Assumptions C06_child_producer_is_the_expansion.
Print Assumptions C06_entry_producer_is_the_expansion.
Print Assumptions C06_child_producer_yields_the_cooked_children.
Print Assumptions C06_atval_is_first_attribute.
Print Assumptions C06_no_import_left.
Print Assumptions C06_no_imports_no_change.
Print Assumptions C06_no_name_twice.
Print Assumptions C06_own_then_inherited.

(* non-vacuity: a diamond import and a DIE with both links *)
Example C06_example :
  let pu := Die 50 60 true 1 [] [Die 55 52 false 2 [] []] in
  let f := [mkunit 0 4 0 (Some (Die 11 17 true 1 [] [Die 15 61 false 3 [mkattr 24 16 (Some 50)] []; Die 20 52 false 2 [] []; Die 22 61 false 3 [mkattr 24 16 (Some 50)] []]));
            mkunit 40 4 0 (Some pu)] in
  map r_kids (cooked_rows f) = [[55; 20; 55]; []; []; []].
Proof. vm_compute. reflexivity. Qed.
Example C06_example_links :
  let a := Die 30 52 false 2 [mkattr 3 8 None; mkattr 60 12 None] [] in
  let b := Die 35 52 false 2 [mkattr 3 8 None; mkattr 58 11 None] [] in
  let d := Die 40 52 false 3 [mkattr 49 19 (Some 35); mkattr 71 19 (Some 30)] [] in
  let f := [mkunit 0 4 0 (Some (Die 11 17 true 1 [] [a; b; d]))] in
  map (fun oa => (fst oa, a_name (snd oa))) (cooked_attrs 5 f d) = [(40, 49); (40, 71); (30, 3); (35, 58)].
Proof. vm_compute. reflexivity. Qed.
