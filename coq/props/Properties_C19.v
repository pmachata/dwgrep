(* C19 — the command line honours its grep-like contract. *)
From Coq Require Import NArith List Bool.
From Dwgrep Require Import Cli CliProofs.
Import ListNotations.

(* the "bump argument list" loop walks through every index vector exactly
   once, in row-major order, and then stops -- whatever the number of
   arguments and of their values (every argument having at least one) *)
Theorem C19_odometer_walk : forall sizes, Forall (fun n => 0 < n) sizes ->
  Steps sizes (zeros sizes) (all_idx sizes).
Proof. exact odometer_walk. Qed.
Print Assumptions C19_odometer_walk.

Theorem C19_row_major : forall args, map (pick args) (all_idx (map (@length val) args)) = combos args.
Proof. exact row_major. Qed.
Print Assumptions C19_row_major.

(* hence the whole program is a fold over the combinations; the fuel of the
   model's loop never runs out *)
Theorem C19_cli_is_fold : forall o files args exec,
  let args' := effective_args files args in
  Forall (fun a => a <> []) args' ->
  cli o true files args exec =
  Some (fold_run o (header_on o args') (negb (match files with [] => true | _ => false end)) args' exec
                 (all_idx (map (@length val) args')) (mkls [] (initial_errors o files) false false)).
Proof. exact cli_is_fold. Qed.
Print Assumptions C19_cli_is_fold.

Theorem C19_status_without_quiet : forall o wh fif args exec l, o_quiet o = false -> forall st,
  status (fold_run o wh fif args exec l st) =
  if l_errors st || existsb (fun i => ex_raised (exec (pick args i))) l then 2%N
  else if l_match st || existsb (fun i => has_results (exec (pick args i))) l then 0%N else 1%N.
Proof. intros. rewrite fold_run_loud by assumption. reflexivity. Qed.
Print Assumptions C19_status_without_quiet.

Theorem C19_quiet_stdout : forall o wh fif args exec l, o_quiet o = true -> forall st, l_out st = [] ->
  stdout (fold_run o wh fif args exec l st) = [].
Proof.
  intros o wh fif args exec l Q st O. destruct (fold_run_quiet o wh fif args exec l Q st) as [errs ->].
  destruct (existsb _ l); [reflexivity|exact O].
Qed.
Print Assumptions C19_quiet_stdout.

Theorem C19_quiet_status : forall o wh fif args exec l, o_quiet o = true ->
  forall st, l_errors st = false -> l_match st = false ->
  status (fold_run o wh fif args exec l st) =
  if existsb (fun i => has_results (exec (pick args i))) l then 0%N else 1%N.
Proof.
  intros o wh fif args exec l Q st E M. destruct (fold_run_quiet o wh fif args exec l Q st) as [errs ->].
  destruct (existsb _ l); cbn [status]; [reflexivity|]. rewrite E, M. reflexivity.
Qed.
Print Assumptions C19_quiet_status.

Theorem C19_count_stdout : forall o wh fif args exec l, o_quiet o = false -> o_count o = true -> forall st,
  stdout (fold_run o wh fif args exec l st) =
  l_out st ++ map (fun i => OutCount (if wh then Some (header_from fif args (pick args i)) else None)
                                     (N.of_nat (length (ex_results (exec (pick args i)))))) l.
Proof.
  intros o wh fif args exec l Q C st. rewrite fold_run_loud by exact Q. unfold emits. rewrite C. reflexivity.
Qed.
Print Assumptions C19_count_stdout.

Theorem C19_plain_stdout : forall o wh fif args exec l, o_quiet o = false -> o_count o = false -> forall st,
  stdout (fold_run o wh fif args exec l st) =
  l_out st ++ flat_map (fun i => flat_map (print_record wh (header_from fif args (pick args i)))
                                          (ex_results (exec (pick args i)))) l.
Proof. intros o wh fif args exec l Q C st. rewrite fold_run_loud by exact Q. unfold emits. rewrite C. reflexivity. Qed.
Print Assumptions C19_plain_stdout.

Theorem C19_stderr_messages : forall o wh fif args exec l, o_quiet o = false -> forall st,
  stderr (fold_run o wh fif args exec l st) =
  l_err st ++ (if o_nomsg o then [] else
               flat_map (fun i => if ex_raised (exec (pick args i))
                                  then [ErrExec (header_from fif args (pick args i))] else []) l).
Proof.
  intros o wh fif args exec l Q st. rewrite fold_run_loud by exact Q. unfold complains.
  (* under -s: [flat_map (fun _ => []) l = []], the step being the hypothesis
     up to conversion of [[] ++ _] *)
  destruct (o_nomsg o); [|reflexivity]. induction l; [reflexivity|assumption].
Qed.
Print Assumptions C19_stderr_messages.

Theorem C19_nomsg_transparent : forall q c H h wh fif args exec l st1 st2,
  l_out st1 = l_out st2 -> l_errors st1 = l_errors st2 -> l_match st1 = l_match st2 ->
  let r1 := fold_run (mkopts q false c H h) wh fif args exec l st1 in
  let r2 := fold_run (mkopts q true c H h) wh fif args exec l st2 in
  stdout r1 = stdout r2 /\ status r1 = status r2.
Proof.
  intros q c H h wh fif args exec l st1 st2 O E M. destruct q.
  - destruct (fold_run_quiet (mkopts true false c H h) wh fif args exec l eq_refl st1) as [e1 ->].
    destruct (fold_run_quiet (mkopts true true c H h) wh fif args exec l eq_refl st2) as [e2 ->].
    destruct (existsb _ l); cbn; rewrite ?O, ?E, ?M; auto.
  - rewrite !fold_run_loud by reflexivity. cbn [stdout status]. rewrite O, E, M. auto.
Qed.
Print Assumptions C19_nomsg_transparent.

Theorem C19_header_rule : forall o args',
  header_on o args' = true <-> o_nohdr o = false /\ (o_withhdr o = true \/ 1 < product (map (@length val) args')).
Proof. exact header_rule. Qed.
Print Assumptions C19_header_rule.

(* non-vacuity: three files of which the second does not open, an argument
   with two values; the last combination raises after a result *)
Example C19_example :
  cli (mkopts false false false false false) true [(1, FOpen 10); (2, FBad); (3, FOpen 11)]%N [[20; 21]]%N
      (fun cur => match cur with [11; 21]%N => ExecRes [[7]%N] true | _ => ExecRes [[7; 8]%N] false end)
  = Some (mkout
      [OutHeader [10; 20]; OutSep; OutVal 7; OutVal 8; OutHeader [10; 21]; OutSep; OutVal 7; OutVal 8;
       OutHeader [11; 20]; OutSep; OutVal 7; OutVal 8; OutHeader [11; 21]; OutVal 7]%N
      [ErrOpen 2; ErrExec [11; 21]]%N 2%N).
Proof. reflexivity. Qed.
