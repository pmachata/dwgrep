(* C20 — printed values are faithful. *)
From Coq Require Import ZArith List.
From Dwgrep Require Import Radix RadixProofs Value ParseInt ParseIntProofs.
Import ListNotations.
Local Open Scope Z_scope.

(* integers render in their domain's radix such that reading the text back as
   a literal gives the same value in the same domain -- for EVERY value of the
   64-bit signed/unsigned range *)
Theorem C20_dec_render_parse : forall z, - 2^63 <= z <= 2^64 - 1 -> parse_int (show_dec z) = PInt z DDec.
Proof. exact dec_render_parse. Qed.
Theorem C20_hex_render_parse : forall z, - 2^63 <= z <= 2^64 - 1 -> z <> 0 -> parse_int (show_hex z) = PInt z DHex.
Proof. exact hex_render_parse. Qed.
Theorem C20_oct_render_parse : forall z, - 2^63 <= z <= 2^64 - 1 -> z <> 0 -> parse_int (show_oct z) = PInt z DOct.
Proof. exact oct_render_parse. Qed.
Theorem C20_bin_render_parse : forall z, - 2^63 <= z <= 2^64 - 1 -> z <> 0 -> parse_int (show_bin z) = PInt z DBin.
Proof. exact bin_render_parse. Qed.
Print Assumptions C20_dec_render_parse.
Print Assumptions C20_hex_render_parse.
Print Assumptions C20_oct_render_parse.
Print Assumptions C20_bin_render_parse.

(* the one exception, recorded as a known finding: zero in a hex/oct/bin
   domain prints "0" and reads back as decimal zero (equal value, other domain) *)
Theorem C20_zero_refuted :
  parse_int (show_hex 0) = PInt 0 DDec /\ parse_int (show_oct 0) = PInt 0 DDec /\ parse_int (show_bin 0) = PInt 0 DDec.
Proof. exact zero_reads_back_decimal. Qed.
Print Assumptions C20_zero_refuted.

(* digits: reading back what was rendered, any base from 2 to 16 *)
Theorem C20_digits_roundtrip : forall base n, (2 <= base <= 16)%N -> read_digits base (digits base n) 0 = Some n.
Proof. exact digits_roundtrip. Qed.
Print Assumptions C20_digits_roundtrip.

From Dwgrep Require Import Escape EscapeProofs.
Local Open Scope N_scope.

(* what dump_charp prints for a string, followed by anything that does not
   start a string continuation, is scanned by the lexer as one literal holding
   exactly the original bytes -- for every byte string *)
Theorem C20_escape_roundtrip : forall s rest,
  Forall (fun c => c < 256) s -> no_continuation rest ->
  lex_string (esc s ++ rest) = Some (LexLit s rest).
Proof. exact escape_roundtrip. Qed.
Print Assumptions C20_escape_roundtrip.

(* so different strings never print alike *)
Theorem C20_escape_injective : forall s1 s2,
  Forall (fun c => c < 256) s1 -> Forall (fun c => c < 256) s2 -> esc s1 = esc s2 -> s1 = s2.
Proof. exact escape_injective. Qed.
Print Assumptions C20_escape_injective.

(* and the rendering is printable ASCII only: no raw newline, NUL or high byte *)
Theorem C20_escape_printable : forall s, Forall (fun c => c < 256) s -> Forall (fun b => 32 <= b <= 126) (esc s).
Proof. exact esc_printable. Qed.
Print Assumptions C20_escape_printable.

Example C20_escape_example :
  esc [97; 34; 0; 49; 37; 255] = [34; 97; 92; 34; 92; 120; 48; 48; 49; 37; 37; 92; 120; 102; 102; 34].
Proof. vm_compute. reflexivity. Qed.

(* the tables of named constants are regenerated from the running vocabulary
   and the system headers on every run (checks/C20.py) *)
From Dwgrep Require Import VocTable VocProofs.

Theorem C20_header_values : forall name v r,
  In (name, v) hdr_rows -> In r voc_rows -> r_word r = name -> r_val r = v.
Proof. exact header_values. Qed.
Print Assumptions C20_header_values.

Theorem C20_rendering_reads_back : forall r, In r voc_rows ->
  exists r', In r' voc_rows /\ r_word r' = r_show r /\ r_val r' = r_val r /\ r_dom r' = r_dom r.
Proof. exact rendering_reads_back. Qed.
Print Assumptions C20_rendering_reads_back.

Theorem C20_renderings_unambiguous : forall r r', In r voc_rows -> In r' voc_rows ->
  r_show r' = r_show r -> r_val r' = r_val r /\ r_dom r' = r_dom r.
Proof. exact renderings_unambiguous. Qed.
Print Assumptions C20_renderings_unambiguous.

Example C20_tables_populated : (500 <? N.of_nat (length voc_rows))%N = true /\ (500 <? N.of_nat (length hdr_rows))%N = true.
Proof. exact tables_populated. Qed.
