(* C03 — names resolve lexically.  Scope.v: the documented scoping rules;
   Den.v: what reads and blocks mean; Build.v: bindings.cc / build.cc.
   Statements only. *)
From Coq Require Import ZArith List String.
From Dwgrep Require Import Value Words Tree Engine Build Den Scope ScopeProofs.
Import ListNotations.

(* bindings never leak out of a scope: every stack yielded by a scoped
   expression carries the environment the scope was entered with *)
Theorem C03_scope_no_leak : forall P prog f t env stk evs ab,
  den P prog (S f) (TScope t) env stk = DOk evs ab ->
  forall s e, List.In (DOut s e) evs -> e = env.
Proof. exact scope_no_leak. Qed.
Print Assumptions C03_scope_no_leak.

(* the rightmost identifier of a binding block takes the top of stack *)
Theorem C03_bind_rightmost_tos : forall P prog f a b v1 v2 r env,
  den P prog (S (S f)) (TCat [TBind b; TBind a]) env (v1 :: v2 :: r)
  = ok [DOut r ((a, v2) :: (b, v1) :: env)].
Proof. exact bind_rightmost_tos. Qed.
Print Assumptions C03_bind_rightmost_tos.

(* a name pushes exactly the value it was bound to ... *)
Theorem C03_read_sees_binding : forall P prog f n v env stk,
  dlookup env n = Some v -> is_closure v = false ->
  den P prog (S f) (TRead n) env stk = ok [DOut (v :: stk) env].
Proof. exact read_sees_binding. Qed.
Print Assumptions C03_read_sees_binding.

(* ... and the innermost binding of a name is the one that is seen *)
Theorem C03_inner_shadows : forall n v env, dlookup ((n, v) :: env) n = Some v.
Proof. exact inner_shadows. Qed.
Print Assumptions C03_inner_shadows.

(* blocks capture the bindings visible where they are created, and reading a
   name bound to a block behaves as the inlined body with those bindings *)
Theorem C03_block_captures_env : forall P prog f id body env stk,
  den P prog (S f) (TBlock id body) env stk = ok [DOut (VClo id (encode_env env) 0 :: stk) env].
Proof. exact block_captures_env. Qed.
Print Assumptions C03_block_captures_env.

Theorem C03_captured_env_is_kept : forall env, decode_env (encode_env env) = env.
Proof. exact decode_encode. Qed.
Print Assumptions C03_captured_env_is_kept.

Theorem C03_read_applies_block : forall P prog f n blk cenv pos env stk body,
  dlookup env n = Some (VClo blk cenv pos) -> find_block prog blk = Some body ->
  den P prog (S f) (TRead n) env stk = scoped env (den P prog f body (decode_env cenv) stk).
Proof. exact read_applies_block. Qed.
Print Assumptions C03_read_applies_block.

(* rebinding in one scope / reading an unbound name: compile-time errors *)
Theorem C03_rebound_rejected : forall tc n vis cur upm sc rest rt up st b,
  (mem_name n cur = true -> wsc tc (TBind n) vis cur = SErrR SRebound) /\
  (assoc sc n = Some b -> build tc (TBind n) upm (mkbn (sc :: rest) rt) up st = BErr BRebound).
Proof. intros; split; [apply rebound_rejected_doc | apply rebound_rejected_build]. Qed.
Print Assumptions C03_rebound_rejected.

Theorem C03_unbound_rejected : forall tc n vis cur upm st, assoc (voc_table tc) n = None ->
  (mem_name n vis = false -> wsc tc (TRead n) vis cur = SErrR SUnbound) /\
  build tc (TRead n) upm (mkbn [[]] true) UTop st = BErr BUnbound.
Proof. intros tc n vis cur upm st V; split; [intros; apply unbound_rejected_doc; auto | apply unbound_rejected_build; auto]. Qed.
Print Assumptions C03_unbound_rejected.

(* an instance of the documented rule that a binding made in a branch of `,` is not
   visible after it: this one tree, not every ALT *)
Theorem C03_alt_branch_no_leak : forall tc n, assoc (voc_table tc) n = None ->
  well_scoped tc (TCat [TAlt [TBind n; TNop]; TRead n]) = Some SUnbound.
Proof. exact alt_branch_no_leak. Qed.
Print Assumptions C03_alt_branch_no_leak.

(* non-vacuity: `let A := 1, 2; A A add` run by the engine model and by the specification *)
Example C03_nonvacuous :
  let tc := ValueM.mktc 2 3 4 5 [] in
  let P := mkparams tc (fun _ => 1%N) in
  let A := nm "A" in
  let t := TCat [TSubx 1 (TScope (TAlt [TConst 1 DDec; TConst 2 DDec])); TBind A; TRead A; TRead A; TRead (nm "add")] in
  (match build_program tc t with
   | BOk (m, blks) => match run P blks 10 200 m [] with ODone evs => Some evs | _ => None end
   | BErr _ => None
   end) = Some [EvOut [VCst 2 DDec 0]; EvOut [VCst 4 DDec 0]]
  /\ den P t 50 t [] [] = ok [DOut [VCst 2 DDec 0] [(A, VCst 1 DDec 0)]; DOut [VCst 4 DDec 0] [(A, VCst 2 DDec 0)]].
Proof. split; vm_compute; reflexivity. Qed.
