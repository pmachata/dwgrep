(* C09 — comparison is one consistent total order; equality respects constant
   domains.  Model: coq/val/Cmp.v (constant::operator<, value::cmp of
   constants, strings, sequences, address sets, comparison_result and the
   alias table of init.cc).  `comparable v` excludes the hidden closure type;
   `tcodes_distinct` says the four value_type codes differ (observed on the
   implementation by the correspondence check).  Statements only. *)
From Coq Require Import ZArith List.
From Dwgrep Require Import Cmp CmpProofs.
Import ListNotations.
Local Open Scope Z_scope.

Section C09.
  Variables (d : N) (tc : tcodes).
  Hypothesis ND : tcodes_distinct tc.
  Let ok (v : value) := comparable v = true.

  (* exactly one of <, ==, > holds, without error, also across types *)
  Theorem C09_trichotomy : forall a b, ok a -> ok b ->
    (w_lt d tc a b = Some true /\ w_eq d tc a b = Some false /\ w_gt d tc a b = Some false) \/
    (w_lt d tc a b = Some false /\ w_eq d tc a b = Some true /\ w_gt d tc a b = Some false) \/
    (w_lt d tc a b = Some false /\ w_eq d tc a b = Some false /\ w_gt d tc a b = Some true).
  Proof. exact (words_trichotomy d tc ND). Qed.

  (* == is reflexive (a value equals its own copy), symmetric, transitive *)
  Theorem C09_eq_refl : forall a, ok a -> w_eq d tc a a = Some true.
  Proof. exact (words_eq_refl d tc ND). Qed.
  Theorem C09_eq_sym : forall a b, ok a -> ok b -> w_eq d tc a b = Some true -> w_eq d tc b a = Some true.
  Proof. exact (words_eq_sym d tc ND). Qed.
  Theorem C09_eq_trans : forall a b c, ok a -> ok b -> ok c ->
    w_eq d tc a b = Some true -> w_eq d tc b c = Some true -> w_eq d tc a c = Some true.
  Proof. exact (words_eq_trans d tc ND). Qed.

  (* < is transitive and antisymmetric, A < B iff B > A *)
  Theorem C09_lt_trans : forall a b c, ok a -> ok b -> ok c ->
    w_lt d tc a b = Some true -> w_lt d tc b c = Some true -> w_lt d tc a c = Some true.
  Proof. exact (words_lt_trans d tc ND). Qed.
  Theorem C09_lt_antisym : forall a b, ok a -> ok b -> w_lt d tc a b = Some true -> w_lt d tc b a = Some false.
  Proof. exact (words_lt_antisym d tc ND). Qed.
  Theorem C09_lt_gt_dual : forall a b, ok a -> ok b -> w_lt d tc a b = w_gt d tc b a.
  Proof. exact (words_lt_gt_dual d tc ND). Qed.

  (* equal values are interchangeable under < (strict weak order) *)
  Theorem C09_eq_lt_compat : forall a b c, ok a -> ok b -> ok c ->
    w_eq d tc a b = Some true ->
    w_lt d tc a c = w_lt d tc b c /\ w_lt d tc c a = w_lt d tc c b.
  Proof. exact (words_eq_lt_compat d tc ND). Qed.

  (* every alias agrees: !lt = ?ge, !gt = ?le, !eq = ?ne (infix forms are the
     same builtins under other names) *)
  Theorem C09_aliases : forall a b,
    w_ge d tc a b = onot (w_lt d tc a b) /\ w_le d tc a b = onot (w_gt d tc a b) /\
    w_ne d tc a b = onot (w_eq d tc a b).
  Proof. exact (words_aliases d tc). Qed.

  Theorem C09_cross_type_no_error : forall a b, ok a -> ok b -> cmp_top d tc a b <> None.
  Proof. exact (words_cross_type_no_error d tc ND). Qed.

  (* integers in arithmetic domains compare by value *)
  Theorem C09_arith_by_value : forall x y, arith x = true -> arith y = true ->
    w_lt d tc (VCst x) (VCst y) = Some (cv x <? cv y) /\ w_eq d tc (VCst x) (VCst y) = Some (cv x =? cv y).
  Proof. exact (words_arith_by_value d tc). Qed.

  (* constants of unrelated domains are never equal, whatever their numbers *)
  Theorem C09_unrelated_never_equal : forall x y, ckey d x <> ckey d y ->
    w_eq d tc (VCst x) (VCst y) = Some false.
  Proof. exact (words_unrelated_never_equal d tc). Qed.

  (* sequences compare by length first *)
  Theorem C09_seq_length_first : forall l m, (length l < length m)%nat ->
    w_lt d tc (VSeq l) (VSeq m) = Some true.
  Proof. exact (words_seq_length_first d tc). Qed.
End C09.

Print Assumptions C09_trichotomy.
Print Assumptions C09_eq_refl.
Print Assumptions C09_eq_sym.
Print Assumptions C09_eq_trans.
Print Assumptions C09_lt_trans.
Print Assumptions C09_lt_antisym.
Print Assumptions C09_lt_gt_dual.
Print Assumptions C09_eq_lt_compat.
Print Assumptions C09_aliases.
Print Assumptions C09_cross_type_no_error.
Print Assumptions C09_arith_by_value.
Print Assumptions C09_unrelated_never_equal.
Print Assumptions C09_seq_length_first.

(* strings compare bytewise: the comparison used is the lexicographic order on
   unsigned bytes *)
Theorem C09_str_bytewise : forall s t, bytes_cmp s t = list_lex N.compare s t.
Proof. exact bytes_cmp_lex. Qed.
Print Assumptions C09_str_bytewise.

(* non-vacuity: a decimal 3 equals a hex 3; a named constant with the same
   number does not; a nested sequence is comparable; a shorter sequence is below
   a longer one *)
Example C09_nonvacuous :
  let tc := mktc 1 2 3 4 in
  let three := VCst (mkcst 3 true 0) in
  let named := VCst (mkcst 3 false 7) in
  tcodes_distinct tc /\
  w_eq 2 tc three (VCst (mkcst 3 true 5)) = Some true /\
  w_eq 2 tc three named = Some false /\
  comparable (VSeq [three; VStr [97%N]; VSeq [named]]) = true /\
  w_lt 2 tc (VSeq [three]) (VSeq [three; three]) = Some true.
Proof.
  unfold tcodes_distinct. cbn. repeat constructor; cbn; intuition discriminate.
Qed.

(* DIEs and units: value_die::cmp, value_cu::cmp; model val/DieCmp.v *)
From Dwgrep Require Import DieCmp DieCmpProofs.
Import DieCmpM.

(* a DIE equals itself; the comparison read the other way round is the opposite *)
Theorem C09_die_refl : forall a, die_cmp a a = Eq.
Proof. exact die_cmp_refl. Qed.
Theorem C09_die_dual : forall a b, die_cmp b a = CompOpp (die_cmp a b).
Proof. exact die_cmp_antisym. Qed.
(* among cooked DIEs reached through the same number of imports: equal only when they are the same DIE
   reached the same way, and <, ==, > each transitive (any chain length, any offsets) *)
Theorem C09_die_equal_is_same : forall a b, cooked a = true -> cooked b = true -> depth a = depth b ->
  die_cmp a b = Eq -> a = b.
Proof. exact die_cmp_eq_same. Qed.
Theorem C09_die_transitive : forall a b c r, cooked a = true -> cooked b = true -> cooked c = true ->
  depth a = depth b -> depth b = depth c -> die_cmp a b = r -> die_cmp b c = r -> die_cmp a c = r.
Proof. exact die_cmp_trans. Qed.
(* the full statement (transitivity for all DIEs) is false of the model, as it is of the code: finding D32.
   The witness is the triple the check reports on tests/dwz-partial2-1 (DIE 0x14 through the import at 0x30,
   as a reference target, through the import at 0x9b). *)
Theorem C09_die_eq_transitive_refuted : exists a b c,
  die_cmp a b = Eq /\ die_cmp b c = Eq /\ die_cmp a c <> Eq.
Proof. exists (via 48), plain, (via 155). destruct die_eq_not_transitive as [H1 [H2 H3]]. repeat split; auto; discriminate. Qed.
(* what == on the cooked DIEs of one file is, exactly: the same offset, and of the two chains of imports the
   DIEs were reached through (innermost import first) one is an initial part of the other.  Hence a DIE reached
   without imports equals every route to it (D32), and routes through equally many imports are equal only when
   they are the same route. *)
Theorem C09_die_equality_characterised : forall o1 c1 o2 c2,
  die_cmp (route o1 c1) (route o2 c2) = Eq <-> o1 = o2 /\ (prefix c1 c2 \/ prefix c2 c1).
Proof. exact route_eq_iff. Qed.
Theorem C09_chainless_equals_every_route : forall o c, die_cmp (route o []) (route o c) = Eq.
Proof. exact chainless_equals_every_route. Qed.
Theorem C09_equal_length_routes_equal_is_same : forall o1 c1 o2 c2, length c1 = length c2 ->
  die_cmp (route o1 c1) (route o2 c2) = Eq -> o1 = o2 /\ c1 = c2.
Proof. exact equal_length_routes. Qed.
(* two units are equal only when they are the same unit of the same module *)
Theorem C09_units_equal_is_same : forall a b, cu_cmp a b = Eq <-> a = b.
Proof. exact cu_cmp_eq. Qed.
Example C09_die_nonvacuous :
  cooked (via 48) = true /\ cooked (via 155) = true /\ depth (via 48) = depth (via 155) /\ die_cmp (via 48) (via 155) = Lt.
Proof. vm_compute. auto. Qed.

Print Assumptions C09_die_refl.
Print Assumptions C09_die_equality_characterised.
Print Assumptions C09_chainless_equals_every_route.
Print Assumptions C09_equal_length_routes_equal_is_same.
Print Assumptions C09_die_dual.
Print Assumptions C09_die_equal_is_same.
Print Assumptions C09_die_transitive.
Print Assumptions C09_die_eq_transitive_refuted.
Print Assumptions C09_units_equal_is_same.
