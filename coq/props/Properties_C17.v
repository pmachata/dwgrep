(* C17 — location lists, their operations and abbreviations are consistent with the DIEs. *)
From Coq Require Import ZArith List.
From Dwgrep Require Import Loc LocProofs.
Import ListNotations.
Local Open Scope Z_scope.

Theorem C17_signed_operand_roundtrip : forall z, - two64 / 2 <= z < two64 / 2 -> sword_of (word_of z) = z.
Proof. exact signed_operand_roundtrip. Qed.
Theorem C17_unsigned_operand_kept : forall n, 0 <= n < two64 -> word_of n = n.
Proof. exact unsigned_operand_kept. Qed.
Theorem C17_signed_class_value : forall o, op_class (o_code o) = OCSigned -> - two64 / 2 <= o_a o < two64 / 2 ->
  op_values o = Some [(o_a o, ODec)].
Proof. exact signed_class_value. Qed.
Theorem C17_bregx_value : forall off r d, 0 <= r < two64 -> - two64 / 2 <= d < two64 / 2 ->
  op_values (mkop off 146 r d) = Some [(r, ODec); (d, ODec)].
Proof. exact bregx_value. Qed.
Theorem C17_length_is_number_of_elem : forall e, w_length e = N.of_nat (length (w_elem e)).
Proof. exact length_is_number_of_elem. Qed.
Theorem C17_relem_is_elem_reversed : forall e, map snd (w_relem e) = rev (map snd (w_elem e)).
Proof. exact relem_is_elem_reversed. Qed.
Theorem C17_elem_in_stored_order : forall e, map snd (w_elem e) = l_ops e /\
  map fst (w_elem e) = map N.of_nat (seq 0 (length (l_ops e))).
Proof. exact elem_in_stored_order. Qed.
Theorem C17_has_op_iff : forall e code, w_has_op e code = true <-> exists o, In o (l_ops e) /\ o_code o = code.
Proof. exact has_op_iff. Qed.
Theorem C17_lookup_finds : forall table, NoDup (map ab_code table) -> forall a, In a table -> lookup table (ab_code a) = Some a.
Proof. exact lookup_finds. Qed.
Theorem C17_matches_spec : forall a tag flag attrs, matches a tag flag attrs = true ->
  ab_tag a = tag /\ ab_children a = flag /\ map fst (ab_attrs a) = map fst attrs.
Proof. exact matches_spec. Qed.
Print Assumptions C17_signed_operand_roundtrip.
Print Assumptions C17_unsigned_operand_kept.
Print Assumptions C17_signed_class_value.
Print Assumptions C17_bregx_value.
Print Assumptions C17_length_is_number_of_elem.
Print Assumptions C17_relem_is_elem_reversed.
Print Assumptions C17_elem_in_stored_order.
Print Assumptions C17_has_op_iff.
Print Assumptions C17_lookup_finds.
Print Assumptions C17_matches_spec.

Example C17_example : op_values (mkop 2 146 40 (-16)) = Some [(40, ODec); (-16, ODec)]
                      /\ op_values (mkop 0 145 (-8) 0) = Some [(-8, ODec)].
Proof. vm_compute. auto. Qed.
