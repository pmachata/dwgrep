(* C12 — a compiled query is a pure function of its input stack.
   Api.v models the C API over one compiled query; each result set owns its
   state; the input stack is a value (the model has no operation that could
   change it: that the C++ does not is checked by dumping it before and after).  (That NO state is shared between result sets in the C++ — statics,
   caches, mutable members — is what the correspondence check examines.) *)
From Coq Require Import ZArith List.
From Dwgrep Require Import Value Words Tree Engine Build Api ApiProofs EngineProofs StarvedProofs.
Import ListNotations.

(* In any history of execute / pull / destroy operations over any number of
   result sets, what result set r is told is what it would be told if the
   operations on all other result sets were removed from the history. *)
Theorem C12_history_projection : forall P blks prog fuel r h t t',
  tget t r = tget t' r ->
  answers_for r (run_hist P blks prog fuel t h)
  = answers_for r (run_hist P blks prog fuel t' (filter (concerns r) h)).
Proof. exact history_projection. Qed.
Print Assumptions C12_history_projection.

(* in particular, starting from nothing: a fresh run *)
Corollary C12_fresh_run : forall P blks prog fuel r h,
  answers_for r (run_hist P blks prog fuel [] h)
  = answers_for r (run_hist P blks prog fuel [] (filter (concerns r) h)).
Proof. intros. apply history_projection. reflexivity. Qed.
Print Assumptions C12_fresh_run.

(* Stronger form: what result set r is told is a function of r's own
   operations alone (`view r h`: its executes, pulls, destroys, in order) -
   computed by `run_local`, which has no table and no identifiers. *)
Theorem C12_history_is_local : forall P blks prog fuel r h t,
  answers_for r (run_hist P blks prog fuel t h) = run_local P blks prog fuel (tget t r) (view r h).
Proof. exact history_is_local. Qed.
Print Assumptions C12_history_is_local.

(* Two executions driven the same way - in one history or in two, under any
   identifiers, with anything else going on in between - are told the same. *)
Theorem C12_same_view_same_answers : forall P blks prog fuel r1 r2 h1 h2 t1 t2,
  tget t1 r1 = tget t2 r2 -> view r1 h1 = view r2 h2 ->
  answers_for r1 (run_hist P blks prog fuel t1 h1) = answers_for r2 (run_hist P blks prog fuel t2 h2).
Proof. exact same_view_same_answers. Qed.
Print Assumptions C12_same_view_same_answers.

(* An execution on `input` pulled n times, wherever it sits in a history,
   yields what a fresh run on `input` pulled n times yields. *)
Theorem C12_as_a_fresh_run : forall P blks prog fuel r h t input n,
  view r h = LExec input :: repeat LPull n ->
  answers_for r (run_hist P blks prog fuel t h) = fresh_run P blks prog fuel input n.
Proof. exact as_a_fresh_run. Qed.
Print Assumptions C12_as_a_fresh_run.

(* A result set abandoned half-way and the identifier executed again: the new
   execution starts over, whatever was pulled before. *)
Theorem C12_reexecute_starts_over : forall P blks prog fuel r h t l input n,
  view r h = l ++ LExec input :: repeat LPull n ->
  exists before, answers_for r (run_hist P blks prog fuel t h) = before ++ fresh_run P blks prog fuel input n.
Proof. exact reexecute_starts_over. Qed.
Print Assumptions C12_reexecute_starts_over.

(* Consumed fully, and then asked again: once a result set (the engine model's
   chain for one execution) has reported the end, the next pull reports the end
   again - nothing, no diagnostic - and leaves the chain pristine on an empty
   origin, where C01_end_is_final speaks of the pull after it. *)
Theorem C12_after_the_end : forall P blks, Forall quiet blks -> forall f env m sl s outs m1 c1 s1,
  quiet m -> drains P blks f env m (LOrigin sl) s outs m1 c1 s1 ->
  forall g s2 r m2 c2 s3 e, EngineM.next P blks g env m1 c1 s2 = Ret (r, m2, c2, s3, e) ->
  r = None /\ e = [] /\ quiet m2 /\ reset m2 = reset m /\ c2 = LOrigin None.
Proof. exact after_the_end. Qed.
Print Assumptions C12_after_the_end.

Example C12_nonvacuous :
  let tc := ValueM.mktc 2 3 4 5 [] in
  let P := mkparams tc (fun _ => 1%N) in
  let t := TAlt [TScope (TConst 1 DDec); TScope (TConst 2 DDec)] in
  match build_program tc t with
  | BOk (m, blks) =>
    answers_for 0 (run_hist P blks m 100 [] [Execute 0 []; Execute 1 [VCst 9 DDec 0]; Pull 0; Pull 1; Pull 0; Destroy 1; Pull 0])
    = [AStack [VCst 1 DDec 0] []; AStack [VCst 2 DDec 0] []; AEnd []]
  | BErr _ => False
  end.
Proof. vm_compute. reflexivity. Qed.
