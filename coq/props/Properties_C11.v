(* C11 — core words do what their documentation says; dispatch depends only on
   the values near the top of the stack.  Models: Words.v (the words),
   Profile.v (stack.hh's cached type profile, selector.hh). *)
From Coq Require Import ZArith List Lia.
From Dwgrep Require Import Value Words WordsProofs Profile ProfileProofs.
Import ListNotations.
Local Open Scope Z_scope.

(* any history of push / pop / drop leaves the cached profile equal to the
   type codes of the top four values: how the stack was built is forgotten *)
Theorem C11_profile_invariant : forall ops s p s' p',
  wf_codes s -> p = prof s ->
  Forall (fun o => match o with Push c => 0 < c < 256 | _ => True end) ops ->
  run_ops ops (s, p) = Some (s', p') -> wf_codes s' /\ p' = prof s'.
Proof. exact profile_invariant. Qed.
Print Assumptions C11_profile_invariant.

(* an overload with a one-/two-type selector is picked iff the top one/two
   values have those types *)
Theorem C11_selector1 : forall t s, 0 < t < 256 -> wf_codes s ->
  (sel_matches [t] (prof s) = true <-> exists r, s = t :: r).
Proof. exact selector1_matches_iff. Qed.
Theorem C11_selector2 : forall t1 t0 s, 0 < t0 < 256 -> 0 < t1 < 256 -> wf_codes s ->
  (sel_matches [t0; t1] (prof s) = true <-> exists r, s = t0 :: t1 :: r).
Proof. exact selector2_matches_iff. Qed.
Print Assumptions C11_selector1.
Print Assumptions C11_selector2.

(* `infix_b`, `prefix_b`, `suffix_b` at N.eqb (Words.v: what run_pred computes for
   ?find, ?starts, ?ends on two strings) are infix, prefix and suffix of byte
   lists, including empty operands and needles longer than the haystack.  The
   statements are about these three functions, not about run_pred. *)
Theorem C11_find_is_infix : forall n h,
  infix_b N.eqb n h = true <-> exists pre post, h = pre ++ n ++ post.
Proof. exact infix_b_spec. Qed.
Theorem C11_starts_is_prefix : forall n h, prefix_b N.eqb n h = true <-> exists post, h = n ++ post.
Proof. exact prefix_b_spec. Qed.
Theorem C11_ends_is_suffix : forall n h, suffix_b N.eqb n h = true <-> exists pre, h = pre ++ n.
Proof. exact suffix_b_spec. Qed.
Print Assumptions C11_find_is_infix.
Print Assumptions C11_starts_is_prefix.
Print Assumptions C11_ends_is_suffix.

(* `number` (Words.v), which sets the positions of what elem and relem yield (on a
   sequence elem yields `number l`, one stack each: WordsProofs.elem_seq_spec),
   numbers 0, 1, 2, ...: a statement about `number`, not about run_word.  relem on
   a sequence is elem on the reversed one. *)
Theorem C11_elem_numbers : forall l k d, (k < length l)%nat ->
  nth k (number l) d = set_pos (nth k l d) (N.of_nat k).
Proof. exact number_spec. Qed.
Theorem C11_relem_reversed : forall P l p r,
  run_word P WRelem (VSeq l p :: r) = run_word P WElem (VSeq (rev l) p :: r).
Proof. exact relem_is_elem_of_reverse. Qed.
Print Assumptions C11_elem_numbers.
Print Assumptions C11_relem_reversed.

Theorem C11_length_add : forall P r,
  ((forall s p, run_word P WLength (VStr s p :: r) = WOut [VCst (Z.of_nat (length s)) DDec 0 :: r] []) /\
   (forall l p, run_word P WLength (VSeq l p :: r) = WOut [VCst (Z.of_nat (length l)) DDec 0 :: r] [])) /\
  ((forall a pa b pb, run_word P WAdd (VStr b pb :: VStr a pa :: r) = WOut [VStr (a ++ b) 0 :: r] []) /\
   (forall a pa b pb, run_word P WAdd (VSeq b pb :: VSeq a pa :: r) = WOut [VSeq (a ++ b) 0 :: r] [])).
Proof. intros; split; [apply length_spec | apply add_spec]. Qed.
Print Assumptions C11_length_add.

(* an operand of an unsupported type: a diagnostic and no result, never a wrong one *)
Theorem C11_unsupported_no_result : forall P z d p r,
  run_word P WLength (VCst z d p :: r) = WOut [] [SErr] /\
  run_word P WElem (VCst z d p :: r) = WOut [] [SErr] /\
  run_word P WAdd (VCst z d p :: VStr [] 0 :: r) = WOut [] [SErr].
Proof. exact unsupported_no_result. Qed.
Print Assumptions C11_unsupported_no_result.

Theorem C11_shuffle : forall P a b c r,
  run_word P WDup (a :: r) = WOut [a :: a :: r] [] /\
  run_word P WDrop (a :: r) = WOut [r] [] /\
  run_word P WSwap (a :: b :: r) = WOut [b :: a :: r] [] /\
  run_word P WOver (a :: b :: r) = WOut [b :: a :: b :: r] [] /\
  run_word P WRot (a :: b :: c :: r) = WOut [c :: a :: b :: r] [].
Proof. exact shuffle_spec. Qed.
Print Assumptions C11_shuffle.

Theorem C11_cast_keeps_value : forall P z d p dom r,
  run_word P (WCast dom) (VCst z d p :: r) = WOut [VCst z dom 0 :: r] [].
Proof. exact cast_keeps_value. Qed.
Print Assumptions C11_cast_keeps_value.

Example C11_nonvacuous :
  wf_codes [2; 3; 4; 2; 3] /\
  run_ops [Push 2; Push 3; Push 4; Push 2; Push 3; Pop; Pop; Drop 1; Push 4] ([], 0)
  = Some ([4; 3; 2], 4 + 3 * 256 + 2 * 65536).
Proof. split; [repeat constructor; lia | vm_compute; reflexivity]. Qed.
