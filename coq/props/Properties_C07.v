(* C07 — attribute values decode to the right type, value, sign and constant domain. *)
From Coq Require Import ZArith List Lia.
From Dwgrep Require Import Atval AtvalProofs CovModel Ranges RangesProofs TypeCtx TypeCtxProofs.
Import ListNotations.
Local Open Scope Z_scope.

(* sign extension of a w-byte datum is the two's complement reading of its bits: in
   range, congruent to the stored bits -- and the only such number (any width, any bits) *)
Theorem C07_sext_twos_complement : forall w bits, (0 < w)%N -> 0 <= bits < 2 ^ (8 * Z.of_N w) ->
  - 2 ^ (8 * Z.of_N w - 1) <= sext w bits < 2 ^ (8 * Z.of_N w - 1) /\ (sext w bits) mod 2 ^ (8 * Z.of_N w) = bits.
Proof. exact sext_twos_complement. Qed.
Theorem C07_sext_unique : forall w bits z, (0 < w)%N -> 0 <= bits < 2 ^ (8 * Z.of_N w) ->
  - 2 ^ (8 * Z.of_N w - 1) <= z < 2 ^ (8 * Z.of_N w - 1) -> z mod 2 ^ (8 * Z.of_N w) = bits -> z = sext w bits.
Proof. exact sext_unique. Qed.

(* integral data: signedness by the encoding of the DIE's (peeled) type *)
Theorem C07_const_value_signed : forall w bits enc, enc = ATE_signed \/ enc = ATE_signed_char ->
  at_value AT_const_value (RData w bits) (TEnc enc) = ACst (sext w bits) ADec.
Proof. exact const_value_signed. Qed.
Theorem C07_const_value_unsigned : forall w bits enc,
  enc = ATE_unsigned \/ enc = ATE_unsigned_char \/ enc = ATE_address \/ enc = ATE_UTF ->
  at_value AT_const_value (RData w bits) (TEnc enc) = ACst bits ADec.
Proof. exact const_value_unsigned. Qed.
Theorem C07_const_value_boolean : forall w bits, at_value AT_const_value (RData w bits) (TEnc ATE_boolean) = ACst bits ABool.
Proof. exact const_value_boolean. Qed.
Theorem C07_const_value_pointer : forall w bits, at_value AT_const_value (RData w bits) TPointer = ACst bits AAddr.
Proof. exact const_value_pointer. Qed.
(* DW_FORM_sdata / DW_FORM_udata on an attribute without a domain of its own: the number as the form reader decoded
   it, in decimal, whatever the name and the type context *)
Theorem C07_form_decides_sign : forall name z c, own_domain name = false ->
  at_value name (RSdata z) c = ACst z ADec /\ at_value name (RUdata z) c = ACst z ADec.
Proof. exact form_decides_sign. Qed.
(* enumerated attributes as the matching family of named constants *)
Theorem C07_enumerated_in_family : forall name r c z, member name enumerated = true -> uval r = Some z ->
  (forall big b, r <> RBlock big b) -> at_value name r c = ACst z (AFam name).
Proof. exact enumerated_in_family. Qed.
(* whatever the attribute: strings byte for byte, references as the offset they resolve to, flags as 0 / 1 in the
   boolean domain, addresses in the address domain *)
Theorem C07_plain_classes : forall name c,
  (forall b, at_value name (RStr b) c = AStr b) /\ (forall o, at_value name (RRef o) c = ARef o) /\
  (forall b, at_value name (RFlag b) c = ACst (if b then 1 else 0) ABool) /\ (forall n, at_value name (RAddr n) c = ACst n AAddr).
Proof. exact plain_classes. Qed.
(* what is not interpreted is reported as an error, never silently a number *)
Theorem C07_uninterpreted_encoding_is_error : forall w bits enc,
  In enc [ATE_float; ATE_imaginary_float; ATE_complex_float; ATE_signed_fixed; ATE_unsigned_fixed; ATE_packed_decimal; ATE_decimal_float] ->
  at_value AT_const_value (RData w bits) (TEnc enc) = AErr.
Proof. exact const_value_uninterpreted_encoding. Qed.
Theorem C07_discr_value_is_error : forall w bits c, at_value AT_discr_value (RData w bits) c = AErr.
Proof. exact discr_value_is_error. Qed.
Theorem C07_unknown_form_is_error : forall name c, at_value name ROther c = AErr.
Proof. exact unknown_form_is_error. Qed.
(* DW_AT_ranges: the address set holds exactly the addresses of the stored ranges (any number of them, in any
   order, overlapping or not, empty ones included); an empty entry neither adds anything nor ends the list *)
Theorem C07_ranges_denote_stored_ranges : forall rs, (forall r, In r rs -> proper r) ->
  CovM.Inv (RangesM.die_ranges rs) /\ forall x, CovM.mem (RangesM.die_ranges rs) x <-> exists r, In r rs /\ fst r <= x < snd r.
Proof. exact die_ranges_ok. Qed.
Theorem C07_empty_range_entry_is_skipped : forall pre a post, (forall r, In r (pre ++ (a, a) :: post) -> proper r) ->
  forall x, CovM.mem (RangesM.die_ranges (pre ++ (a, a) :: post)) x <-> CovM.mem (RangesM.die_ranges (pre ++ post)) x.
Proof. exact empty_entry_is_skipped. Qed.
Example C07_ranges_nonvacuous :
  RangesM.die_ranges [(4096, 4112); (1, 1); (8192, 8256); (4100, 4120)] = [(4096, 24); (8192, 64)]
  /\ (forall r, In r [(4096, 4112); (1, 1); (8192, 8256); (4100, 4120)] -> proper r).
Proof. split; [vm_compute; reflexivity|]. intros r H. cbn [In] in H. unfold proper, CovM.TOP.
  repeat (destruct H as [<-|H]; [cbn [fst snd]; lia|]). destruct H. Qed.

(* the type context of a DW_AT_const_value (model dw/TypeCtx.v of get_type_die and the tests after it):
   typedefs and qualifiers in front of a type are transparent, at any depth (apply repeatedly); a base type
   gives its encoding; a pointer is a pointer whatever it points to; an enumerator takes the encoding of
   the base type the enumeration's DW_AT_type leads straight to; more fuel never changes a context *)
Import TypeCtxM.
Theorem C07_qualifiers_transparent : forall f ts o w o' r,
  lookup ts o = Some w -> keep_peeling (td_tag w) = true -> td_type w = Some o' ->
  var_ctx f ts (Some o') = Some r -> var_ctx (S f) ts (Some o) = Some r.
Proof. exact qualifier_transparent. Qed.
Theorem C07_base_type_gives_its_encoding : forall f ts o t e,
  lookup ts o = Some t -> td_tag t = TAG_base_type -> td_enc t = Some e -> var_ctx (S f) ts (Some o) = Some (TEnc e).
Proof. exact base_type_encoding. Qed.
Theorem C07_pointer_is_pointer : forall f ts o t,
  lookup ts o = Some t -> (td_tag t = TAG_pointer_type \/ td_tag t = TAG_ptr_to_member_type) -> var_ctx (S f) ts (Some o) = Some TPointer.
Proof. exact pointer_is_pointer. Qed.
Theorem C07_enumerator_takes_underlying_encoding : forall f ts p o t e,
  td_tag p = TAG_enumeration_type -> td_type p = Some o -> lookup ts o = Some t -> td_tag t = TAG_base_type -> td_enc t = Some e ->
  enumerator_ctx (S f) ts p = Some (TEnc e).
Proof. exact enumerator_underlying. Qed.
Theorem C07_context_stable_under_fuel : forall f g ts d r, (f <= g)%nat -> ctx_from f ts d = Some r -> ctx_from g ts d = Some r.
Proof. exact ctx_more. Qed.
(* a termination argument that is not there: the loop of get_type_die has no bound, a typedef / qualifier whose
   DW_AT_type is the DIE itself (malformed DWARF; the cycle of length one) is never left *)
Theorem C07_circular_type_chain_never_ends : forall ts o w,
  lookup ts o = Some w -> keep_peeling (td_tag w) = true -> td_type w = Some o -> forall f, peel f ts w = None.
Proof. exact circular_chain_never_ends. Qed.
Example C07_type_context_nonvacuous :
  let ts := [(10%N, mktd TAG_typedef (Some 20%N) None false []); (20%N, mktd TAG_const_type (Some 30%N) None false []);
             (30%N, mktd TAG_base_type None (Some 7%N) false [])] in
  var_ctx 5 ts (Some 10%N) = Some (TEnc 7) /\ var_ctx 5 ts (Some 30%N) = Some (TEnc 7) /\ var_ctx 5 ts None = Some TNoInfo.
Proof. vm_compute. auto. Qed.

(* block-form constants are read in the byte order of the file *)
Theorem C07_block_constant_byte_order : forall b enc, encoding_value (RBlock true b) enc = encoding_value (RBlock false (rev b)) enc.
Proof. exact block_byte_order. Qed.
Example C07_big_endian_block : at_value AT_const_value (RBlock true [254; 212]%N) (TEnc ATE_signed) = ACst (-300) ADec
                            /\ at_value AT_const_value (RBlock false [212; 254]%N) (TEnc ATE_signed) = ACst (-300) ADec.
Proof. vm_compute. auto. Qed.

Print Assumptions C07_sext_twos_complement.
Print Assumptions C07_block_constant_byte_order.
Print Assumptions C07_qualifiers_transparent.
Print Assumptions C07_base_type_gives_its_encoding.
Print Assumptions C07_pointer_is_pointer.
Print Assumptions C07_enumerator_takes_underlying_encoding.
Print Assumptions C07_context_stable_under_fuel.
Print Assumptions C07_circular_type_chain_never_ends.
Print Assumptions C07_ranges_denote_stored_ranges.
Print Assumptions C07_empty_range_entry_is_skipped.
Print Assumptions C07_sext_unique.
Print Assumptions C07_const_value_signed.
Print Assumptions C07_const_value_unsigned.
Print Assumptions C07_const_value_boolean.
Print Assumptions C07_const_value_pointer.
Print Assumptions C07_form_decides_sign.
Print Assumptions C07_enumerated_in_family.
Print Assumptions C07_plain_classes.
Print Assumptions C07_uninterpreted_encoding_is_error.
Print Assumptions C07_discr_value_is_error.
Print Assumptions C07_unknown_form_is_error.

Example C07_example : at_value AT_const_value (RData 1 255) (TEnc ATE_signed) = ACst (-1) ADec
                      /\ at_value AT_const_value (RBlock false [255; 255]%N) (TEnc ATE_unsigned) = ACst 65535 ADec
                      /\ at_value AT_language (RUdata 12) TNoInfo = ACst 12 (AFam AT_language).
Proof. vm_compute. auto. Qed.
