(* C14 — any byte string is either compiled or rejected with an error: the
   scanner's part. *)
From Coq Require Import NArith List Arith.
From Dwgrep Require Import Lexer LexerProofs.
Import ListNotations.
Local Open Scope N_scope.

(* the scanner (all three start conditions) is total on byte strings: the
   model's fuel, one unit per byte, is never exhausted ... *)
Theorem C14_lex_total : forall s, lex_all s <> LexFuel.
Proof. exact lex_total. Qed.
Print Assumptions C14_lex_total.

(* ... so every byte string is classified: tokens, or tokens then a lexical error *)
Theorem C14_lex_classifies : forall s,
  (exists ts, lex_all s = LexOk ts) \/ (exists ts e, lex_all s = LexError ts e).
Proof. exact lex_classifies. Qed.
Print Assumptions C14_lex_classifies.

(* one step in the INITIAL condition consumes at least one byte and never
   more than the input holds (nothing is read past the given length) *)
Theorem C14_step_progress : forall c s, (1 <= fst (match_initial (c :: s)))%nat.
Proof. exact match_initial_progress. Qed.
Theorem C14_step_bounded : forall s, (fst (match_initial s) <= length s)%nat.
Proof. exact match_initial_bounded. Qed.
Print Assumptions C14_step_progress.
Print Assumptions C14_step_bounded.

(* what the string scanner hands back is no longer than its input (in a
   continuation: than the input it may back up to), through every escape,
   continuation and embedded-expression path *)
Theorem C14_string_scan_bounded : forall N k s, (length s <= k)%nat -> (k <= N)%nat ->
  forall m f ps rest, mode_ok N m -> str_scan m f s = SDone ps rest -> (length rest <= N)%nat.
Proof. intros N k s Hk HN m f ps rest. exact (str_scan_suffix N s m f ps rest (Nat.le_trans _ _ _ Hk HN)). Qed.
Print Assumptions C14_string_scan_bounded.

(* accepted inputs deliver a token list that ends with the end-of-file token *)
Theorem C14_tokens_end_with_eof : forall fuel s acc ts, lex fuel s acc = LexOk ts -> exists ts', ts = ts' ++ [TEOF].
Proof. exact lex_ends_with_eof. Qed.
Print Assumptions C14_tokens_end_with_eof.

(* a string literal opened at the start of the input and not terminated is
   rejected, whatever its content (plain: no quote, backslash or percent) *)
Theorem C14_unterminated_string_rejected : forall s, Forall (fun c => c <> 34 /\ c <> 92 /\ c <> 37) s ->
  lex_all (34 :: s) = LexError [] EUnterminated.
Proof. exact unterminated_string_rejected. Qed.
Print Assumptions C14_unterminated_string_rejected.

(* non-vacuity: a string with a format directive, a NUL byte, an unterminated
   embedded expression *)
Example C14_example_ok : analyse [49; 32; 34; 97; 37; 115; 34] = VParsed [TInt [49]; TStr [PLit [97]; PDir 115; PLit []]; TEOF].
Proof. vm_compute. reflexivity. Qed.
Example C14_example_nul : analyse [49; 0] = VLexError (EInvalidChar 0).
Proof. vm_compute. reflexivity. Qed.
Example C14_example_splice : analyse [34; 37; 40; 32; 49] = VLexError ETooFewClosing.
Proof. vm_compute. reflexivity. Qed.
