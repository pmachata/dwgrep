(* C08 — Integer arithmetic is exact over [-2^63, 2^64-1] or reports an error.
   Only property statements live here; each is closed by `exact <lemma>`.
   The model (IntModel.v) mirrors /repo/libzwerg/int.cc clause for clause and
   is tied to it by the correspondence check (harness/intdrv.cc vs the
   extracted model, ./check C08). *)
From Coq Require Import ZArith List.
From Dwgrep Require Import IntModel IntProofs.
Local Open Scope Z_scope.

(* what "exact or error" means for a result r and the mathematically exact z *)
Definition exact_or_error (r : res) (z : Z) : Prop :=
  match r with
  | Ok v => wf v /\ ival v = z            (* the exact value, well-formed *)
  | Err => ~ (- 2^63 <= z < 2^64)         (* only when z is out of range *)
  end.

Theorem C08_add : forall a b, wf a -> wf b -> exact_or_error (add a b) (ival a + ival b).
Proof. exact add_ok. Qed.
Print Assumptions C08_add.

Theorem C08_sub : forall a b, wf a -> wf b -> exact_or_error (sub a b) (ival a - ival b).
Proof. exact sub_ok. Qed.
Print Assumptions C08_sub.

Theorem C08_mul : forall a b, wf a -> wf b -> exact_or_error (mul a b) (ival a * ival b).
Proof. exact mul_ok. Qed.
Print Assumptions C08_mul.

(* floor division; division by zero is always an error *)
Theorem C08_div : forall a b, wf a -> wf b ->
  if ival b =? 0 then div a b = Err
  else exact_or_error (div a b) (ival a / ival b).
Proof. exact div_ok. Qed.
Print Assumptions C08_div.

(* remainder with the divisor's sign; never an error unless the divisor is 0 *)
Theorem C08_mod : forall a b, wf a -> wf b ->
  if ival b =? 0 then modulo a b = Err
  else exists r, modulo a b = Ok r /\ wf r /\ ival r = ival a mod ival b.
Proof. exact mod_ok. Qed.
Print Assumptions C08_mod.

Theorem C08_neg : forall v, wf v -> exact_or_error (neg v) (- ival v).
Proof. exact neg_ok. Qed.
Print Assumptions C08_neg.

(* all six comparisons agree with the order on Z *)
Theorem C08_cmp : forall a b, wf a -> wf b ->
  (lt a b = (ival a <? ival b)) /\ (gt a b = (ival a >? ival b)) /\
  (le a b = (ival a <=? ival b)) /\ (ge a b = (ival a >=? ival b)) /\
  (eq a b = (ival a =? ival b)) /\ (ne a b = negb (ival a =? ival b)).
Proof. exact cmp_ok. Qed.
Print Assumptions C08_cmp.

(* the result of add, sub, mul, div depends on the integers the operands denote,
   not on whether they are held signed or unsigned *)
Theorem C08_repr_irrelevant : forall a a' b b', wf a -> wf a' -> wf b -> wf b' ->
  ival a = ival a' -> ival b = ival b' ->
  forall op, In op (add :: sub :: mul :: div :: nil) ->
  match op a b, op a' b' with
  | Ok r, Ok r' => ival r = ival r'
  | Err, Err => True
  | _, _ => False
  end.
Proof. exact repr_irrelevant. Qed.
Print Assumptions C08_repr_irrelevant.

(* non-vacuity: the word 2^63 is well-formed signed and unsigned and denotes
   different integers; operations on such operands return values. *)
Example C08_nonvacuous :
  wf (mk (2^63) true) /\ wf (mk (2^63) false) /\
  ival (mk (2^63) true) = - 2^63 /\ ival (mk (2^63) false) = 2^63 /\
  add (mk (2^63) true) (mk (2^63) false) = Ok (mk 0 true) /\
  div (mk (2^63) true) (mk (2^64 - 1) false) = Ok (mk (2^64 - 1) true) /\
  modulo (mk (2^64 - 1) true) (mk (2^64 - 1) false) = Ok (mk (2^64 - 2) false).
Proof. repeat split; vm_compute; intro; discriminate. Qed.
