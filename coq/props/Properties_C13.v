(* C13 — state lifecycle and layout (the part of the property a model can carry). *)
From Coq Require Import ZArith List.
From Dwgrep Require Import Scon SconProofs.
Import ListNotations.
Local Open Scope N_scope.

(* layout.cc: ::align rounds up to the next multiple; for a power of two the
   bit trick of the source is (top + (a - 1)) / a * a over Z; successive
   reservations do not overlap; a union covers its members *)
Theorem C13_align_up_spec : forall top a, 0 < a -> top <= align_up top a /\ align_up top a < top + a /\ (align_up top a) mod a = 0.
Proof. exact align_up_spec. Qed.
Theorem C13_align_bits_is_align_up : forall top k, (0 <= top)%Z -> (0 <= k)%Z ->
  align_bits top (2 ^ k) = ((top + (2 ^ k - 1)) / 2 ^ k * 2 ^ k)%Z.
Proof. exact align_bits_is_align_up. Qed.
Theorem C13_reserve_disjoint : forall m s1 a1 s2 a2, 0 < a1 -> 0 < a2 ->
  let '(l1, m1) := reserve m s1 a1 in let '(l2, m2) := reserve m1 s2 a2 in
  m <= l1 /\ l1 + s1 <= l2 /\ l2 + s2 = m2.
Proof. exact reserve_disjoint. Qed.
Theorem C13_add_union_covers : forall m subs, m <= add_union m subs /\ Forall (fun s => s <= add_union m subs) subs.
Proof. exact add_union_covers. Qed.

(* lifecycle: what acceptance by the automaton (= no abort of the hook) means *)
Theorem C13_accepted_never_overlaps : forall cap tr1 tr2, run cap [] (tr1 ++ tr2) 0 = Accept ->
  exists l, after cap [] tr1 0 = Some l /\ pairwise l /\ inside cap l.
Proof. exact accepted_never_overlaps. Qed.
Theorem C13_accepted_use_is_live : forall cap tr1 o s tr2,
  (run cap [] (tr1 ++ Get o s :: tr2) 0 = Accept \/ run cap [] (tr1 ++ Des o s :: tr2) 0 = Accept) ->
  exists l, after cap [] tr1 0 = Some l /\ existsb (same (o, s)) l = true.
Proof. exact accepted_use_is_live. Qed.
Theorem C13_accepted_balanced : forall cap tr, run cap [] (tr ++ [End]) 0 = Accept ->
  forall r, cons_of r tr = dess_of r tr.
Proof. exact accepted_balanced. Qed.
Print Assumptions C13_align_up_spec.
Print Assumptions C13_align_bits_is_align_up.
Print Assumptions C13_reserve_disjoint.
Print Assumptions C13_add_union_covers.
Print Assumptions C13_accepted_never_overlaps.
Print Assumptions C13_accepted_use_is_live.
Print Assumptions C13_accepted_balanced.

Example C13_example :
  run 56 [] [Con 8 40; Con 0 8; Get 0 8; Con 48 8; Des 48 8; Des 0 8; Des 8 40; End] 0 = Accept /\
  run 56 [] [Con 8 40; Con 40 8] 0 = RejectOverlap 1 /\ run 56 [] [Con 0 8; End] 0 = RejectLeak 1.
Proof. vm_compute. auto. Qed.
