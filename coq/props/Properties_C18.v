(* C18 — ELF symbols are reported completely and faithfully. *)
From Coq Require Import NArith List.
From Dwgrep Require Import Symtab SymtabProofs.
Local Open Scope N_scope.

Theorem C18_rows_complete : forall tab, length (rows tab) = length tab.
Proof. exact rows_complete. Qed.
Theorem C18_rows_faithful : forall tab k s, nth_error tab k = Some s ->
  nth_error (rows tab) k = Some (mkrow (N.of_nat k) (s_name s) (s_value s) (s_size s)
                                       (st_type (s_info s)) (st_bind (s_info s)) (st_visibility (s_other s))).
Proof. exact rows_faithful. Qed.
Theorem C18_info_roundtrip : forall b t, t < 16 -> st_type (st_info b t) = t /\ st_bind (st_info b t) = b.
Proof. exact info_roundtrip. Qed.
Theorem C18_visibility_ignores_upper_bits : forall other k, st_visibility (other mod 4 + 4 * k) = other mod 4.
Proof. exact visibility_ignores_upper_bits. Qed.
Theorem C18_generic_codes_equal_everywhere : forall f1 f2 c, c < LOOS -> const_eqb f1 c f2 c = true.
Proof. exact generic_codes_equal_everywhere. Qed.
Theorem C18_machine_codes_never_equal_another_machines : forall f1 f2 c1 c2, LOOS <= c1 -> f1 <> f2 -> const_eqb f1 c1 f2 c2 = false.
Proof. exact machine_codes_never_equal_another_machines. Qed.
Theorem C18_same_family_equal_iff_same_code : forall f c1 c2, const_eqb f c1 f c2 = true <-> c1 = c2.
Proof. exact same_family_equal_iff_same_code. Qed.
Print Assumptions C18_rows_complete.
Print Assumptions C18_rows_faithful.
Print Assumptions C18_info_roundtrip.
Print Assumptions C18_visibility_ignores_upper_bits.
Print Assumptions C18_generic_codes_equal_everywhere.
Print Assumptions C18_machine_codes_never_equal_another_machines.
Print Assumptions C18_same_family_equal_iff_same_code.

Example C18_example : const_eqb EM_ARM 13 EM_SPARC 13 = false /\ const_eqb EM_ARM 2 0 2 = true /\ st_visibility 98 = 2.
Proof. vm_compute. auto. Qed.
