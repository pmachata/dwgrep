(* C16 — address sets behave as mathematical sets of addresses.
   Model: coq/cov/CovModel.v (coverage.cc + the words of builtin-aset.cc).
   Only property statements here; each closed by `exact <lemma>`. *)
From Coq Require Import ZArith List.
From Dwgrep Require Import CovModel CovProofs CovProofs2.
Import ListNotations.
Local Open Scope Z_scope.

(* Inv: ascending, pairwise disjoint, non-adjacent, non-empty runs that end at
   or below 2^64 - 1.  mem c x: address x belongs to the set c denotes. *)

(* the binary search of coverage::find returns the number of runs that start
   below the sought address (so the vector splits there) *)
Theorem C16_find_spec : forall c lo start, inv_from lo c ->
  (find c start <= length c)%nat /\
  (forall i, (i < find c start)%nat -> fst (nth i c (0, 0)) < start) /\
  (forall i, (find c start <= i < length c)%nat -> start <= fst (nth i c (0, 0))).
Proof. exact find_spec. Qed.
Print Assumptions C16_find_spec.

(* add is set union with the interval, and keeps the invariant *)
Theorem C16_add : forall c s l, Inv c -> 0 <= s -> 0 <= l -> s + l < 2^64 ->
  Inv (add c s l) /\ forall x, mem (add c s l) x <-> mem c x \/ s <= x < s + l.
Proof. exact add_ok. Qed.
Print Assumptions C16_add.

(* `A B add` on two address sets is union *)
Theorem C16_add_all : forall a b, Inv a -> Inv b ->
  Inv (add_all a b) /\ forall x, mem (add_all a b) x <-> mem a x \/ mem b x.
Proof. exact add_all_ok. Qed.
Print Assumptions C16_add_all.

(* canonical form: two vectors satisfying the invariant that denote the same
   set are the same vector ... *)
Theorem C16_canonical : forall a lo b lo',
  inv_from lo a -> inv_from lo' b -> (forall x, mem a x <-> mem b x) -> a = b.
Proof. exact canonical. Qed.
Print Assumptions C16_canonical.

(* ... hence comparison says "equal" exactly when they denote the same set,
   however they were built *)
Theorem C16_cmp_eq_iff_same_set : forall a b, Inv a -> Inv b ->
  (w_cmp a b = Eq <-> forall x, mem a x <-> mem b x).
Proof. exact cmp_eq_iff_same_set. Qed.
Print Assumptions C16_cmp_eq_iff_same_set.

(* is_covered / is_overlap are the set predicates *)
Theorem C16_is_covered : forall c s l, Inv c -> 0 <= s -> 0 < l -> s + l < 2^64 ->
  (is_covered c s l = true <-> forall x, s <= x < s + l -> mem c x).
Proof. exact is_covered_ok. Qed.
Print Assumptions C16_is_covered.

Theorem C16_is_overlap : forall c s l, Inv c -> 0 <= s -> 0 < l -> s + l < 2^64 ->
  (is_overlap c s l = true <-> exists x, s <= x < s + l /\ mem c x).
Proof. exact is_overlap_ok. Qed.
Print Assumptions C16_is_overlap.

(* remove is set difference with the interval (and says whether anything was removed) *)
Theorem C16_remove : forall c s l, Inv c -> 0 <= s -> 0 < l -> s + l < 2^64 ->
  Inv (snd (remove c s l)) /\
  (forall x, mem (snd (remove c s l)) x <-> mem c x /\ ~ (s <= x < s + l)) /\
  (fst (remove c s l) = true <-> exists x, s <= x < s + l /\ mem c x).
Proof. exact remove_ok. Qed.
Print Assumptions C16_remove.

(* intersect is intersection with the interval *)
Theorem C16_intersect : forall c s l, Inv c -> 0 <= s -> 0 < l -> s + l < 2^64 ->
  Inv (intersect c s l) /\ (forall x, mem (intersect c s l) x <-> mem c x /\ s <= x < s + l).
Proof. exact intersect_ok. Qed.
Print Assumptions C16_intersect.

(* the words on two address sets: difference, intersection, subset, meets *)
Theorem C16_sub : forall a b, Inv a -> Inv b ->
  Inv (w_sub a b) /\ forall x, mem (w_sub a b) x <-> mem a x /\ ~ mem b x.
Proof. exact w_sub_ok. Qed.
Theorem C16_overlap : forall a b, Inv a -> Inv b ->
  Inv (w_overlap a b) /\ forall x, mem (w_overlap a b) x <-> mem a x /\ mem b x.
Proof. exact w_overlap_ok. Qed.
Theorem C16_contains : forall a b, Inv a -> Inv b -> (w_contains a b = true <-> forall x, mem b x -> mem a x).
Proof. exact w_contains_ok. Qed.
Theorem C16_overlaps : forall a b, Inv a -> Inv b -> (w_overlaps a b = true <-> exists x, mem a x /\ mem b x).
Proof. exact w_overlaps_ok. Qed.
Print Assumptions C16_sub.
Print Assumptions C16_overlap.
Print Assumptions C16_contains.
Print Assumptions C16_overlaps.

Example C16_nonvacuous :
  Inv [(0, 2); (5, 5)] /\ add [(0, 2); (5, 5)] 2 3 = [(0, 10)]
  /\ remove [(0, 10)] 3 1 = (true, [(0, 3); (4, 6)])
  /\ intersect [(0, 10)] 3 1 = [(3, 1)]
  /\ Inv [(2^64 - 3, 2)].
Proof. repeat split; try reflexivity; discriminate. Qed.

(* "however they were built": the address set that the library reads from a list of address ranges (DW_AT_ranges:
   any order, overlapping, adjacent, empty entries) is the very same value as the one built from those ranges
   with the words `aset` and `add` *)
From Dwgrep Require Import Ranges RangesProofs.
Theorem C16_ranges_equal_built : forall rs, (forall r, In r rs -> proper r) -> RangesM.die_ranges rs = built rs.
Proof. exact ranges_equal_built. Qed.
Print Assumptions C16_ranges_equal_built.
Example C16_ranges_nonvacuous :
  RangesM.die_ranges [(48, 64); (16, 32); (32, 48); (5, 5)] = [(16, 48)] /\ built [(48, 64); (16, 32); (32, 48); (5, 5)] = [(16, 48)].
Proof. vm_compute. auto. Qed.
