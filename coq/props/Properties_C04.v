(* C04 — assertions and sub-expression contexts never disturb the surrounding
   stack.  Statements over the specification (Den.v) and, at the end, over the
   engine model (Engine.v: op_assert, op_subx, op_capture); the engine model is
   tied to the implementation by the correspondence check. *)
From Coq Require Import ZArith List String.
From Dwgrep Require Import Value Words Tree Engine Build Den DenProofs NeutralProofs.
Import ListNotations.

(* ?(E), !(E) and E1 op E2 are ASSERT nodes: whatever the sub-expression does
   (push, pop, fail, yield many times), every yielded stack is the incoming one *)
Theorem C04_assert_keeps_stack : forall P prog f p env stk,
  match den P prog f (TAssert p) env stk with
  | DOk evs _ => forall s e, List.In (DOut s e) evs -> s = stk /\ e = env
  | _ => True
  end.
Proof. exact assert_keeps_stack. Qed.
Print Assumptions C04_assert_keeps_stack.

(* every ?word / !word of the vocabulary *)
Theorem C04_pred_word_keeps_stack : forall P prog f n positive w env stk,
  dlookup env n = None -> assoc (voc_table (p_tc P)) n = Some (BIPred positive w) ->
  match den P prog f (TRead n) env stk with
  | DOk evs _ => forall s e, List.In (DOut s e) evs -> s = stk /\ e = env
  | _ => True
  end.
Proof. exact pred_word_keeps_stack. Qed.
Print Assumptions C04_pred_word_keeps_stack.

(* ?X holds exactly when !X does not; when X reports an error neither holds *)
Theorem C04_exclusive : forall r,
  match r with
  | PFail => holds r = false /\ holds (pnot r) = false
  | _ => holds r = negb (holds (pnot r))
  end.
Proof. exact pred_exclusive. Qed.
Print Assumptions C04_exclusive.

(* `let ... := E;` = SUBX_EVAL <n> followed by n BINDs: the n values that the
   binds pop are the n values taken from E's result; below them is exactly
   the incoming stack *)
Theorem C04_let_leaves_stack : forall keep sub stk out,
  subx_result keep sub stk = Some out -> skipn keep out = stk /\ firstn keep out = firstn keep sub.
Proof. exact subx_then_binds. Qed.
Print Assumptions C04_let_leaves_stack.

(* [E] leaves everything intact and adds the one captured sequence *)
Theorem C04_capture_adds_one : forall P prog f c env stk evs ab,
  den P prog f (TCapture c) env stk = DOk evs ab ->
  forall s e, List.In (DOut s e) evs -> exists vs, s = VSeq vs 0 :: stk /\ e = env.
Proof. exact capture_adds_one. Qed.
Print Assumptions C04_capture_adds_one.

(* op_assert (?(E), !(E), infix, ?word/!word) in the engine model: a stack that
   comes out is, unchanged, what an earlier pull (one with less fuel) of some chain
   returned, and the op's state afterwards wraps the state that pull left the chain
   in (`pulled_before`; that the chain is a state of `up` is not in the statement) *)
Theorem C04_engine_assert_forwards : forall P blks f env up p c s stk m' c' s' e,
  EngineM.next P blks f env (MAssert up p) c s = Ret (Some stk, m', c', s', e) ->
  exists up1, m' = MAssert up1 p /\ pulled_before P blks f env stk up1 c'.
Proof. exact assert_forwards. Qed.
Print Assumptions C04_engine_assert_forwards.

(* op_subx (let bodies, operands of infix assertions): the stack that comes out
   is `keep` values on top of a stack `sv` that is the one saved in the op, or one
   that an earlier pull of some chain returned (the statement ties neither that
   chain to `up` nor `sub` to a result of `inner`) *)
Theorem C04_engine_subx_keeps : forall P blks f env up inner keep saved slot c s stk m' c' s' e,
  EngineM.next P blks f env (MSubx up inner keep saved slot) c s = Ret (Some stk, m', c', s', e) ->
  exists sv sub, stk = (firstn keep sub ++ sv)%list /\ (keep <= List.length sub)%nat /\
    (saved = Some sv \/ exists up1 c1, pulled_before P blks f env sv up1 c1).
Proof. exact subx_keeps. Qed.
Print Assumptions C04_engine_subx_keeps.

(* op_capture ([E]): one sequence on top of a stack that an earlier pull of some chain
   returned; the op's state afterwards wraps the state that pull left the chain in *)
Theorem C04_engine_capture_adds_one : forall P blks f env up inner c s stk m' c' s' e,
  EngineM.next P blks f env (MCapture up inner) c s = Ret (Some stk, m', c', s', e) ->
  exists vs below up1, stk = VSeq vs 0%N :: below /\ m' = MCapture up1 inner /\ pulled_before P blks f env below up1 c'.
Proof. exact capture_forwards. Qed.
Print Assumptions C04_engine_capture_adds_one.

Example C04_nonvacuous :
  let tc := ValueM.mktc 2 3 4 5 [] in
  let P := mkparams tc (fun _ => 1%N) in
  (* 7 ?(drop 1 2) *)
  let t := TCat [TConst 7 DDec; TAssert (TPredSubx (TScope (TCat [TRead (nm "drop"); TConst 1 DDec; TConst 2 DDec])))] in
  den P t 50 t [] [] = ok [DOut [VCst 7 DDec 0] []].
Proof. vm_compute. reflexivity. Qed.
