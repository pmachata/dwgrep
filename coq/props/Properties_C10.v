(* C10 — `*`/`+` yield each reachable stack exactly once per input.
   Statements about the closure operator of the specification (Den.v,
   closure_loop: `E*` on stk is stk followed by closure_loop … [stk] [stk],
   `E+` is closure_loop … [stk] []), for an arbitrary body `step`.
   `a == b` is stack_eqb; positions are not part of it.
   At the end: the same "at most once" for the op of the engine model
   (op_tr_closure), whose equality with the specification is tested. *)
From Coq Require Import ZArith List String.
From Dwgrep Require Import Value ValueProofs Words Tree Engine Build Den ClosureProofs ClosureEngine.
Import ListNotations.

(* each distinct stack at most once: no yielded stack == an earlier one, nor
   a member of the seen-set the closure started with ([stk] for `*`) *)
Theorem C10_no_duplicates : forall step env g work seen evs ab,
  closure_loop step env g work seen = DOk evs ab -> fresh_wrt seen (outs_of evs).
Proof. exact closure_no_dup. Qed.
Print Assumptions C10_no_duplicates.

(* only reachable stacks: whatever is yielded is reachable from the input in
   one or more applications of the body *)
Theorem C10_sound : forall step env g work seen evs ab,
  closure_loop step env g work seen = DOk evs ab ->
  forall x, List.In x (outs_of evs) -> exists w, List.In w work /\ reach_plus step w x.
Proof. exact closure_sound. Qed.
Print Assumptions C10_sound.

(* every reachable stack: if the evaluation finishes, the input together with
   the yielded stacks contains (up to ==) everything reachable from the input.
   Hypotheses that are used: on the stacks concerned (dom) == is reflexive, the
   body maps dom into dom and treats == stacks alike.  The other two, symmetry and
   transitivity of ==, are there but not needed: they hold of all stacks
   (C10_eq_sym, C10_eq_trans below; reflexivity only of closure-free ones, C10_eq_refl). *)
Theorem C10_star_complete : forall step env (dom : stack -> Prop),
  (forall a, dom a -> stack_eqb a a = true) ->
  (forall a b, stack_eqb a b = true -> stack_eqb b a = true) ->
  (forall a b c, stack_eqb a b = true -> stack_eqb b c = true -> stack_eqb a c = true) ->
  (forall a b, dom a -> succ step a b -> dom b) ->
  (forall a a' b, dom a -> dom a' -> stack_eqb a a' = true -> succ step a b ->
                  exists b', succ step a' b' /\ stack_eqb b b' = true) ->
  forall g stk evs, dom stk ->
  closure_loop step env g [stk] [stk] = DOk evs false ->
  forall x, reach_star step stk x -> seen_mem x (stk :: outs_of evs) = true.
Proof. intros step env dom R _ _ D Re. exact (star_complete step env dom R D Re). Qed.
Print Assumptions C10_star_complete.

Theorem C10_eq_sym : forall a b, stack_eqb a b = true -> stack_eqb b a = true.
Proof. exact stack_eqb_sym. Qed.
Theorem C10_eq_trans : forall a b c, stack_eqb a b = true -> stack_eqb b c = true -> stack_eqb a c = true.
Proof. exact stack_eqb_trans. Qed.
Theorem C10_eq_refl : forall a, closure_free a -> stack_eqb a a = true.
Proof. exact stack_eqb_refl. Qed.
Print Assumptions C10_eq_sym.
Print Assumptions C10_eq_trans.
Print Assumptions C10_eq_refl.

(* the engine model's op_tr_closure: whatever a pull of it yields is not == to
   anything in its seen-set, and is put there; the seen-set it is compared
   against is the one the pull started with, or the empty one if the pull took
   the next input *)
Theorem C10_engine_yield_is_fresh : forall P blks f env up inner plus slot seen stks drained c s stk m' c' s' e,
  EngineM.next P blks f env (MClosure up inner plus slot seen stks drained) c s = Ret (Some stk, m', c', s', e) ->
  exists up' inner' sl' seen0 stks' dr',
    m' = MClosure up' inner' plus sl' (stk :: seen0) stks' dr' /\
    seen_mem stk seen0 = false /\ (seen0 = seen \/ seen0 = []).
Proof. exact closure_yield_is_fresh. Qed.
Print Assumptions C10_engine_yield_is_fresh.

(* so the stacks yielded for one input (= the seen-set) are pairwise different, pull after pull *)
Theorem C10_engine_seen_distinct : forall P blks f env up inner plus slot seen stks drained c s stk m' c' s' e,
  distinct seen ->
  EngineM.next P blks f env (MClosure up inner plus slot seen stks drained) c s = Ret (Some stk, m', c', s', e) ->
  exists up' inner' sl' seen' stks' dr', m' = MClosure up' inner' plus sl' seen' stks' dr' /\ distinct seen' /\ hd_error seen' = Some stk.
Proof. exact closure_seen_distinct. Qed.
Print Assumptions C10_engine_seen_distinct.

(* and the op reports the end with nothing remembered *)
Theorem C10_engine_end_is_clean : forall P blks f env up inner plus slot seen stks drained c s m' c' s' e,
  EngineM.next P blks f env (MClosure up inner plus slot seen stks drained) c s = Ret (None, m', c', s', e) ->
  exists up' inner' sl', m' = MClosure up' inner' plus sl' [] [] true.
Proof. exact closure_end_is_clean. Qed.
Print Assumptions C10_engine_end_is_clean.

(* non-vacuity: 0 (1 add 3 mod)* in the specification and in the engine model *)
Example C10_nonvacuous :
  let tc := ValueM.mktc 2 3 4 5 [] in
  let P := mkparams tc (fun _ => 1%N) in
  let body := TScope (TCat [TConst 1 DDec; TRead (nm "add"); TConst 3 DDec; TRead (nm "mod")]) in
  let t := TCat [TConst 0 DDec; TStar body] in
  den P t 50 t [] [] = ok [DOut [VCst 0 DDec 0] []; DOut [VCst 1 DDec 0] []; DOut [VCst 2 DDec 0] []]
  /\ (match build_program tc t with
      | BOk (m, blks) => match run P blks 10 200 m [] with ODone evs => Some evs | _ => None end
      | BErr _ => None
      end) = Some [EvOut [VCst 0 DDec 0]; EvOut [VCst 1 DDec 0]; EvOut [VCst 2 DDec 0]].
Proof. split; vm_compute; reflexivity. Qed.
