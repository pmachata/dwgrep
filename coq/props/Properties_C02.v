(* C02 — the raw view reports exactly the DIE tree stored in .debug_info. *)
From Coq Require Import NArith List.
From Dwgrep Require Import Forest ForestProofs Iter IterProofs.
Import ListNotations.
Local Open Scope N_scope.

(* the rows of the raw view are the stored DIEs in section pre-order ... *)
Theorem C02_rows_are_the_stored_dies : forall f, map r_off (raw_rows f) = map d_off (raw_entries f).
Proof. exact raw_rows_offsets. Qed.
(* ... each exactly once (offsets identify DIEs in a well-formed file): `wf f` is `NoDup` of the offsets of the
   pre-order, so this restates the hypothesis for the rows, by the theorem above ... *)
Theorem C02_each_die_once : forall f, wf f -> NoDup (map r_off (raw_rows f)).
Proof. exact raw_rows_exactly_once. Qed.
(* ... with the stored tag, child flag, children and attribute (name, form) list, in stored order *)
Theorem C02_row_is_stored : forall f d,
  r_tag (raw_row f d) = d_tag d /\ r_flag (raw_row f d) = d_flag d /\
  r_kids (raw_row f d) = map d_off (d_kids d) /\
  r_attrs (raw_row f d) = map (fun a => (a_name a, a_form a)) (d_attrs d).
Proof. exact raw_row_is_stored. Qed.
(* the parent reported for a DIE is the DIE that stores it as a child, in whichever unit it lies *)
Theorem C02_parent_is_the_storing_die : forall f, wf f -> forall r p k,
  In r (roots f) -> In p (preorder r) -> In k (d_kids p) -> raw_parent f (d_off k) = Some p.
Proof. exact raw_child_has_parent. Qed.
(* nothing is invented: a parent found in a unit's tree (parent_in, which raw_parent tries unit by unit) lies in
   that tree and stores a child at that offset *)
Theorem C02_parent_sound : forall r o p, parent_in r o = Some p ->
  In p (preorder r) /\ exists k, In k (d_kids p) /\ d_off k = o.
Proof. exact parent_in_sound. Qed.
Print Assumptions C02_rows_are_the_stored_dies.
Print Assumptions C02_each_die_once.
Print Assumptions C02_row_is_stored.
Print Assumptions C02_parent_is_the_storing_die.
Print Assumptions C02_parent_sound.

(* non-vacuity: a unit, an empty unit, a childless DIE whose abbreviation claims children *)
Example C02_example :
  let f := [mkunit 0 4 0 (Some (Die 11 17 true 1 [] [Die 15 11 true 2 [] []; Die 17 52 false 3 [mkattr 3 8 None] []]));
            mkunit 30 4 0 None;
            mkunit 41 5 0 (Some (Die 53 17 true 1 [] []))] in
  map r_off (raw_rows f) = [11; 15; 17; 53] /\ map r_parent (raw_rows f) = [None; Some 11; Some 11; None] /\
  map u_off (raw_units f) = [0; 41].
Proof. vm_compute. auto. Qed.

(* the walk that yields them (model dw/Iter.v of all_dies_iterator::operator++: a child if there is one, else the
   sibling, else a level up and again, unit after unit) visits exactly the stored DIEs in section pre-order, for
   every forest; and at every step the stack of parents is right: the DIE on top stores the DIE at hand *)
Theorem C02_walk_visits_the_stored_dies : forall f, IterM.walk_all f = raw_entries f.
Proof. exact walk_all_is_raw_entries. Qed.
Theorem C02_walk_keeps_the_stack_of_parents : forall p q,
  (let '(d, rs, ctx) := p in zip_ok d rs ctx) -> IterM.next p = Some q -> let '(d', rs', ctx') := q in zip_ok d' rs' ctx'.
Proof. exact next_keeps_stack. Qed.
Theorem C02_top_of_stack_is_the_parent : forall d rs q qrs ctx, zip_ok d rs ((q, qrs) :: ctx) -> In d (d_kids q).
Proof. exact top_of_stack_is_parent. Qed.
Print Assumptions C02_walk_visits_the_stored_dies.
Print Assumptions C02_walk_keeps_the_stack_of_parents.
Print Assumptions C02_top_of_stack_is_the_parent.
Example C02_walk_example :
  let f := [mkunit 0 4 0 (Some (Die 11 17 true 1 [] [Die 15 11 true 2 [] [Die 16 52 false 3 [] []]; Die 17 52 false 3 [] []]));
            mkunit 30 4 0 None; mkunit 41 5 0 (Some (Die 53 17 true 1 [] []))] in
  map d_off (IterM.walk_all f) = [11; 15; 16; 17; 53].
Proof. vm_compute. reflexivity. Qed.
