(* Layout arithmetic of the state area, and the lifecycle automaton: accepted
   histories never overlap live states, use only live ones, and are balanced. *)
From Coq Require Import ZArith List Bool Lia.
From Dwgrep Require Import Scon.
Import ListNotations.
Local Open Scope N_scope.

Theorem align_up_spec top a : 0 < a -> top <= align_up top a /\ align_up top a < top + a /\ (align_up top a) mod a = 0.
Proof.
  intros Ha. unfold align_up. set (x := top + (a - 1)).
  pose proof (N.div_mod x a ltac:(lia)) as D. pose proof (N.mod_lt x a ltac:(lia)) as M.
  (* `lia` is given quotient and remainder as opaque numbers p, r with x = p + r, r < a *)
  split; [|split]; [| |apply N.mod_mul; lia];
  (rewrite (N.mul_comm (x / a) a); set (p := a * (x / a)) in *; set (r := x mod a) in *;
   assert (x = top + (a - 1)) as X by reflexivity; clearbody x p r; lia).
Qed.

(* for an alignment a = 2 ^ k the bit trick of the source computes
   (top + (a - 1)) / a * a, the body of [align_up] written over Z *)
Theorem align_bits_is_align_up top k : (0 <= top)%Z -> (0 <= k)%Z ->
  align_bits top (2 ^ k) = ((top + (2 ^ k - 1)) / 2 ^ k * 2 ^ k)%Z.
Proof.
  intros Ht Hk. unfold align_bits.
  assert ((- 2 ^ k)%Z = Z.lnot (Z.ones k)) as ->.
  { rewrite Z.ones_equiv. unfold Z.lnot. lia. }
  rewrite <- Z.ldiff_land, Z.ldiff_ones_r by lia.
  rewrite Z.shiftl_mul_pow2, Z.shiftr_div_pow2 by lia. reflexivity.
Qed.

Theorem reserve_disjoint m s1 a1 s2 a2 : 0 < a1 -> 0 < a2 ->
  let '(l1, m1) := reserve m s1 a1 in let '(l2, m2) := reserve m1 s2 a2 in
  m <= l1 /\ l1 + s1 <= l2 /\ l2 + s2 = m2.
Proof.
  intros H1 H2. unfold reserve.
  destruct (align_up_spec m a1 H1) as [A _]. destruct (align_up_spec (align_up m a1 + s1) a2 H2) as [B _]. lia.
Qed.

Theorem add_union_covers m subs : m <= add_union m subs /\ Forall (fun s => s <= add_union m subs) subs.
Proof.
  unfold add_union. revert m. induction subs as [|s subs IH]; intros m; cbn [fold_left]; [split; [lia|constructor]|].
  destruct (IH (N.max m s)) as [A B]. split; [lia|constructor; [lia|exact B]].
Qed.

Definition disjoint (a b : region) : Prop := overlaps a b = false.
Fixpoint pairwise (live : list region) : Prop :=
  match live with [] => True | x :: l => Forall (disjoint x) l /\ pairwise l end.
Definition inside (cap : N) (live : list region) : Prop := Forall (fun r => fst r + snd r <= cap) live.

Lemma remove_subset r live x : In x (remove_region r live) -> In x live.
Proof.
  induction live as [|y l IH]; cbn; [auto|]. destruct (same y r); [auto|]. intros [->|H]; auto.
Qed.
Lemma pairwise_remove r live : pairwise live -> pairwise (remove_region r live).
Proof.
  induction live as [|y l IH]; cbn; [auto|]. intros [F P]. destruct (same y r); [exact P|].
  split; [|apply IH; exact P]. rewrite Forall_forall in *. intros x Hx. apply F. eapply remove_subset; eauto.
Qed.

Theorem step_keeps_disjoint cap live e i live' :
  pairwise live -> inside cap live -> step cap live e i = inl live' -> pairwise live' /\ inside cap live'.
Proof.
  intros P I H. destruct e as [o s|o s|o s|]; cbn [step] in H.
  - destruct (N.ltb_spec cap (o + s)) as [|C]; [discriminate|].
    destruct (existsb (overlaps (o, s)) live) eqn:E; [discriminate|]. injection H as <-.
    split; [|constructor; [exact C|exact I]]. split; [|exact P].
    apply Forall_forall. intros x Hx. apply not_true_is_false. intros O.
    rewrite (proj2 (existsb_exists _ _)) in E by eauto. discriminate E.
  - destruct (existsb (same (o, s)) live); [injection H as <-; auto|discriminate].
  - destruct (existsb (same (o, s)) live); [injection H as <-|discriminate].
    split; [apply pairwise_remove; exact P|].
    unfold inside in *. rewrite Forall_forall in *. intros x Hx. apply I. eapply remove_subset; eauto.
  - destruct live; [injection H as <-; auto|discriminate].
Qed.

Fixpoint after (cap : N) (live : list region) (tr : list event) (i : nat) : option (list region) :=
  match tr with
  | [] => Some live
  | e :: tr' => match step cap live e i with inl live' => after cap live' tr' (S i) | inr _ => None end
  end.

Lemma step_never_rejects_with_accept cap live e i : step cap live e i <> inr Accept.
Proof.
  destruct e as [o s|o s|o s|]; cbn [step];
  repeat match goal with |- context [if ?b then _ else _] => destruct b end; discriminate.
Qed.

Lemma run_app cap : forall tr1 tr2 live i, run cap live (tr1 ++ tr2) i = Accept ->
  exists l, after cap live tr1 i = Some l /\ run cap l tr2 (i + length tr1)%nat = Accept.
Proof.
  induction tr1 as [|e tr1 IH]; intros tr2 live i H; cbn [app after length run] in *.
  - exists live. rewrite Nat.add_0_r. auto.
  - destruct (step cap live e i) as [live'|v] eqn:St; [|subst; destruct (step_never_rejects_with_accept _ _ _ _ St)].
    rewrite <- Nat.add_succ_comm. apply IH. exact H.
Qed.

Lemma run_accept_after cap : forall tr live i, run cap live tr i = Accept -> exists l, after cap live tr i = Some l.
Proof.
  intros tr live i H. rewrite <- (app_nil_r tr) in H. destruct (run_app _ _ _ _ _ H) as (l & A & _). eauto.
Qed.

Lemma after_keeps_disjoint cap : forall tr live i l, pairwise live -> inside cap live ->
  after cap live tr i = Some l -> pairwise l /\ inside cap l.
Proof.
  induction tr as [|e tr IH]; intros live i l P I E; cbn [after] in E; [injection E as <-; auto|].
  destruct (step cap live e i) as [live'|v] eqn:St; [|discriminate].
  destruct (step_keeps_disjoint _ _ _ _ _ P I St) as [P' I']. eapply IH; eauto.
Qed.

(* C13: in an accepted history no two live states ever overlap and none leaves the area *)
Theorem accepted_never_overlaps cap tr1 tr2 : run cap [] (tr1 ++ tr2) 0 = Accept ->
  exists l, after cap [] tr1 0 = Some l /\ pairwise l /\ inside cap l.
Proof.
  intros H. destruct (run_app cap tr1 tr2 [] 0%nat H) as [l [A _]]. exists l. split; [exact A|].
  apply (after_keeps_disjoint cap tr1 [] 0%nat l); [exact I|constructor|exact A].
Qed.

(* C13: a state is used or destroyed only while it is constructed *)
Theorem accepted_use_is_live cap tr1 o s tr2 :
  (run cap [] (tr1 ++ Get o s :: tr2) 0 = Accept \/ run cap [] (tr1 ++ Des o s :: tr2) 0 = Accept) ->
  exists l, after cap [] tr1 0 = Some l /\ existsb (same (o, s)) l = true.
Proof.
  intros [H|H]; destruct (run_app cap tr1 _ [] 0%nat H) as [l [A R]]; exists l; (split; [exact A|]);
  cbn [run step] in R; destruct (existsb (same (o, s)) l); [reflexivity|discriminate|reflexivity|discriminate].
Qed.

Fixpoint count (r : region) (l : list region) : nat :=
  match l with [] => O | x :: l' => (if same x r then 1 else 0) + count r l' end.
Fixpoint cons_of (r : region) (tr : list event) : nat :=
  match tr with [] => O | Con o s :: t => (if same (o, s) r then 1 else 0) + cons_of r t | _ :: t => cons_of r t end.
Fixpoint dess_of (r : region) (tr : list event) : nat :=
  match tr with [] => O | Des o s :: t => (if same (o, s) r then 1 else 0) + dess_of r t | _ :: t => dess_of r t end.

Lemma same_sym a b : same a b = same b a.
Proof. unfold same. rewrite (N.eqb_sym (fst a)), (N.eqb_sym (snd a)). reflexivity. Qed.
Lemma same_eq a b : same a b = true -> a = b.
Proof. unfold same. destruct a, b; cbn. intros H. apply andb_prop in H. destruct H as [A B]. apply N.eqb_eq in A, B. congruence. Qed.
Lemma same_refl a : same a a = true.
Proof. unfold same. rewrite !N.eqb_refl. reflexivity. Qed.

(* written with a sum: no subtraction has to be shown not to truncate *)
Lemma count_remove r x live : existsb (same x) live = true ->
  (count r (remove_region x live) + (if same x r then 1 else 0) = count r live)%nat.
Proof.
  induction live as [|y l IH]; cbn [existsb remove_region count]; [discriminate|]. intros E.
  destruct (same y x) eqn:Y.
  - apply same_eq in Y. subst y. lia.
  - rewrite same_sym, Y in E. cbn [count]. rewrite <- (IH E). lia.
Qed.

Lemma count_after cap r : forall tr live i l, after cap live tr i = Some l ->
  (count r l + dess_of r tr = count r live + cons_of r tr)%nat.
Proof.
  induction tr as [|e tr IH]; intros live i l H; cbn [after] in H; [injection H as <-; cbn; lia|].
  destruct (step cap live e i) as [live'|v] eqn:St; [|discriminate]. specialize (IH _ _ _ H).
  destruct e as [o s|o s|o s|]; cbn [step] in St; cbn [cons_of dess_of].
  - destruct (cap <? o + s); [discriminate|]. destruct (existsb (overlaps (o, s)) live); [discriminate|].
    injection St as <-. cbn [count] in IH. lia.
  - destruct (existsb (same (o, s)) live); [injection St as <-|discriminate]. exact IH.
  - destruct (existsb (same (o, s)) live) eqn:E; [injection St as <-|discriminate].
    pose proof (count_remove r (o, s) live E). lia.
  - destruct live; [injection St as <-|discriminate]. exact IH.
Qed.

(* C13: every state constructed in an accepted history that ends with the
   destruction of the area has been destroyed -- exactly as often as constructed *)
Theorem accepted_balanced cap tr : run cap [] (tr ++ [End]) 0 = Accept ->
  forall r, cons_of r tr = dess_of r tr.
Proof.
  intros H r. destruct (run_app cap tr [End] [] 0%nat H) as [l [A R]].
  destruct l as [|x l]; [|discriminate].
  pose proof (count_after cap r tr [] 0%nat [] A) as C. cbn [count] in C. lia.
Qed.
