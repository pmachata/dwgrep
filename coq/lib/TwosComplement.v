(* Reading a residue modulo 2m as a signed number. *)
From Coq Require Import ZArith Lia.
Local Open Scope Z_scope.

Definition signed (m b : Z) : Z := if b <? m then b else b - 2 * m.

Lemma signed_range m b : 0 <= b < 2 * m -> - m <= signed m b < m /\ signed m b mod (2 * m) = b.
Proof.
  intros H. unfold signed. destruct (Z.ltb_spec b m); (split; [lia|]).
  - apply Z.mod_small. lia.
  - symmetry. apply (Z.mod_unique _ _ (-1)); lia.
Qed.

Lemma signed_mod m z : - m <= z < m -> signed m (z mod (2 * m)) = z.
Proof.
  intros H. unfold signed. destruct (Z_lt_le_dec z 0).
  - rewrite <- (Z.mod_unique z (2 * m) (-1) (z + 2 * m)) by lia. destruct (Z.ltb_spec (z + 2 * m) m); lia.
  - rewrite Z.mod_small by lia. destruct (Z.ltb_spec z m); lia.
Qed.
