(* Small list lemmas missing from the Coq 8.16 standard library. *)
From Coq Require Import List PeanoNat.

Lemma nth_firstn {A} (l : list A) : forall n i d, i < n -> nth i (firstn n l) d = nth i l d.
Proof.
  induction l as [|a l IH]; intros n i d H.
  - rewrite firstn_nil. reflexivity.
  - destruct n as [|n]; [inversion H|]. destruct i as [|i]; [reflexivity|].
     apply IH, Nat.succ_lt_mono, H.
Qed.

Lemma nth_skipn {A} (l : list A) : forall n i d, nth i (skipn n l) d = nth (n + i) l d.
Proof.
  induction l as [|a l IH]; intros n i d.
  - destruct i, n; reflexivity.
  - destruct n as [|n]; [reflexivity|]. apply IH.
Qed.

Lemma Forall_nth_error {A} (P : A -> Prop) l : Forall P l <-> forall j x, nth_error l j = Some x -> P x.
Proof.
  rewrite Forall_forall. split.
  - intros H j x Hj. exact (H x (nth_error_In l j Hj)).
  - intros H x Hin. destruct (In_nth_error l x Hin) as [j Hj]. exact (H j x Hj).
Qed.

Lemma existsb_false {A} (p : A -> bool) l : existsb p l = false <-> Forall (fun x => p x = false) l.
Proof.
  induction l as [|x t IH]; cbn; [split; [constructor|reflexivity]|]. rewrite Bool.orb_false_iff, IH.
  split; [intros [A1 A2]; constructor; assumption|intros A1; inversion A1; auto].
Qed.

Lemma existsb_map_ext {A B} (p : B -> bool) (q : A -> bool) (g : A -> B) l :
  Forall (fun x => p (g x) = q x) l -> existsb p (map g l) = existsb q l.
Proof. induction 1 as [|x t Hx _ IH]; cbn; congruence. Qed.

Lemma map_fix {A} (g : A -> A) l : Forall (fun x => g x = x) l -> map g l = l.
Proof. induction 1 as [|x t Hx _ IH]; cbn; congruence. Qed.

Lemma map_const_length {A B} (b : B) (l l' : list A) : length l = length l' -> map (fun _ => b) l = map (fun _ => b) l'.
Proof. revert l'. induction l as [|h t IH]; intros [|h' t'] H; cbn in *; try discriminate; auto. f_equal. apply IH. injection H as H. exact H. Qed.

Lemma find_app {A} (p : A -> bool) l1 l2 : find p (l1 ++ l2) = match find p l1 with Some r => Some r | None => find p l2 end.
Proof. induction l1 as [|a l1 IH]; [reflexivity|]. cbn [app find]. destruct (p a); [reflexivity|exact IH]. Qed.

Lemma find_map {A B} (p : B -> bool) (g : A -> B) l : find p (map g l) = option_map g (find (fun a => p (g a)) l).
Proof. induction l as [|a l IH]; [reflexivity|]. cbn [map find]. destruct (p (g a)); [reflexivity|exact IH]. Qed.

Lemma existsb_find {A} (p : A -> bool) l : existsb p l = if find p l then true else false.
Proof. induction l as [|a l IH]; [reflexivity|]. cbn [existsb find]. destruct (p a); [reflexivity|exact IH]. Qed.

Lemma find_unique {A} (h : A -> bool) l p : In p l -> h p = true -> (forall q, In q l -> h q = true -> q = p) -> find h l = Some p.
Proof.
  intros I H U. destruct (find h l) as [q|] eqn:E.
  - apply find_some in E. f_equal. apply U; tauto.
  - rewrite (find_none _ _ E p I) in H. discriminate H.
Qed.

Lemma NoDup_map_inj {A B} (g : A -> B) l x y : NoDup (map g l) -> In x l -> In y l -> g x = g y -> x = y.
Proof.
  induction l as [|z l IH]; cbn [map]; intros ND Ix Iy E; [contradiction|]. apply NoDup_cons_iff in ND. destruct ND as [Nz ND].
  destruct Ix as [->|Ix], Iy as [->|Iy]; [reflexivity| | |exact (IH ND Ix Iy E)]; destruct Nz; [rewrite E|rewrite <- E]; apply in_map; assumption.
Qed.

Lemma map_flat_map {A B C} (h : B -> C) (f : A -> list B) l :
  map h (flat_map f l) = flat_map (fun x => map h (f x)) l.
Proof. induction l as [|x l IH]; cbn; [reflexivity|]. rewrite map_app, IH. reflexivity. Qed.

Lemma flat_map_map' {A B C} (g : A -> B) (f : B -> list C) l :
  flat_map f (map g l) = flat_map (fun x => f (g x)) l.
Proof. induction l as [|x l IH]; cbn; [reflexivity|]. rewrite IH. reflexivity. Qed.
