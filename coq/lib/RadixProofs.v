(* Rendering an integer and reading the digits back gives the same integer. *)
From Coq Require Import ZArith NArith List Bool Lia.
From Dwgrep Require Import Radix.
Import ListNotations.
Local Open Scope N_scope.

(* The models match bytes against numerals, that is, on the bits of [c].
   [byte_cases c tac] splits [c] along those bits (seven: the numerals are
   below 128) as long as [tac] does not close the goal; what is left are the
   bytes the match singles out. *)
Ltac byte_cases c tac := destruct c as [|c]; [tac|do 7 (try (destruct c as [c|c|]; try tac))].

Lemma digit_val_char base d : 2 <= base <= 16 -> d < base -> digit_val base (digit_char d) = Some d.
Proof.
  intros Hb Hd. unfold digit_val, digit_char. pose proof (proj2 (N.ltb_lt d base) Hd) as Hd'.
  destruct (N.ltb_spec d 10) as [L|L].
  - rewrite (proj2 (N.leb_le 48 _)), (proj2 (N.leb_le _ 57)) by lia. cbn [andb].
    replace (48 + d - 48) with d by lia. rewrite Hd'. reflexivity.
  - rewrite (proj2 (N.leb_gt _ 57)), (proj2 (N.leb_le 97 _)), (proj2 (N.leb_le _ 102)), andb_false_r by lia.
    cbn [andb]. replace (87 + d - 87) with d by lia. rewrite Hd'. reflexivity.
Qed.

Fixpoint dval (base : N) (s : bytes) (acc : N) : N :=
  match s with
  | [] => acc
  | c :: r => match digit_val base c with Some d => dval base r (acc * base + d) | None => acc end
  end.

(* [p] is a digit string of weight [w] (= base ^ length p) and value [n]:
   read in front of anything, it shifts the accumulator by [w] and adds [n] *)
Definition reads (base : N) (p : bytes) (w n : N) : Prop :=
  forall acc t, read_digits base (p ++ t) acc = read_digits base t (acc * w + n).

Lemma reads_snoc base p w q r : 2 <= base <= 16 -> r < base ->
  reads base p w q -> reads base (p ++ [digit_char r]) (w * base) (q * base + r).
Proof.
  intros Hb Hr R acc t. rewrite <- app_assoc, R. cbn [app read_digits].
  rewrite digit_val_char by assumption. f_equal. lia.
Qed.

(* one binary digit of fuel pays for one division by a base >= 2 *)
Lemma fuel_div base fuel n : 2 <= base -> n < 2 ^ N.of_nat fuel -> n / base <> 0 ->
  exists fuel', fuel = S fuel' /\ n / base < 2 ^ N.of_nat fuel'.
Proof.
  intros Hb Hn Hq. destruct fuel as [|fuel'].
  - change (2 ^ N.of_nat 0) with 1 in Hn. assert (n = 0) as -> by lia. rewrite N.div_0_l in Hq; lia.
  - exists fuel'. split; [reflexivity|]. rewrite Nat2N.inj_succ, N.pow_succ_r' in Hn.
    apply N.le_lt_trans with (n / 2); [apply N.div_le_compat_l; lia|apply N.div_lt_upper_bound; lia].
Qed.

Lemma digits_fuel_spec base : 2 <= base <= 16 -> forall fuel n tail, n < 2 ^ N.of_nat fuel ->
  exists p w, digits_fuel (S fuel) base n tail = p ++ tail /\ reads base p w n /\
              (0 < n -> exists d rest, p = digit_char d :: rest /\ 0 < d < base).
Proof.
  induction fuel as [fuel IH] using lt_wf_ind. intros n tail Hn.
  pose proof (N.div_mod n base ltac:(lia)) as DM. pose proof (N.mod_lt n base ltac:(lia)) as Hr.
  cbn [digits_fuel]. set (q := n / base) in *. set (r := n mod base) in *.
  destruct (N.eqb_spec q 0) as [E|E].
  - exists [digit_char r], base. rewrite E in DM. split; [reflexivity|]. split.
    + intros acc t. cbn [app read_digits]. rewrite digit_val_char by assumption. f_equal. lia.
    + exists r, []. split; [reflexivity|lia].
  - destruct (fuel_div base fuel n ltac:(lia) Hn E) as (fuel' & -> & Hq).
    destruct (IH fuel' ltac:(lia) q (digit_char r :: tail) Hq) as (p & w & -> & R & Hd).
    exists (p ++ [digit_char r]), (w * base). rewrite <- app_assoc. split; [reflexivity|]. split.
    + rewrite DM, (N.mul_comm base). apply reads_snoc; assumption.
    + intros _. destruct Hd as (d & rest & -> & Hd); [lia|]. exists d, (rest ++ [digit_char r]). auto.
Qed.

Lemma digits_spec base n : 2 <= base <= 16 ->
  (exists w, reads base (digits base n) w n) /\
  (0 < n -> exists d rest, digits base n = digit_char d :: rest /\ 0 < d < base).
Proof.
  intros Hb. unfold digits.
  destruct (digits_fuel_spec base Hb (N.to_nat (N.size n)) n []) as (p & w & -> & R & H).
  - rewrite N2Nat.id. apply N.size_gt.
  - rewrite app_nil_r. eauto.
Qed.

Theorem digits_roundtrip base n : 2 <= base <= 16 -> read_digits base (digits base n) 0 = Some n.
Proof.
  intros Hb. destruct (digits_spec base n Hb) as [[w R] _].
  rewrite <- (app_nil_r (digits base n)), R. reflexivity.
Qed.

Lemma digits_head base n : 2 <= base <= 16 -> 0 < n ->
  exists d rest, digits base n = digit_char d :: rest /\ 0 < d < base.
Proof. intros Hb. apply digits_spec, Hb. Qed.
